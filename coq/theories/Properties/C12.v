(** C12 — Snapshots reproduce exactly the state of their version. *)
From TC Require Import Model.Sync Proofs.SyncP Proofs.WireP.

(** Every snapshot a replica uploads is the state obtained by replaying the
    chain up to the version it is uploaded for ... *)
Theorem C12_snapshot_request_is_chain_state :
  forall (sz : sop -> N) (limit : N) (c : list (list sop)) (x : sst) (v : nat) (d : db),
  sst_inv c x -> sync_next sz limit x = inl (RAddSnapshot v d) ->
  v = x_base x /\ d = cstate c v.
Proof. exact snapshot_request_is_chain_state. Qed.

(** ... and so is, after any history (interleavings, faults, several versions
    per sync, foreign versions), the snapshot the server holds. *)
Theorem C12_stored_snapshot_is_chain_state :
  forall (sz : sop -> N) (limit : N) (n : nat) (h : list event) v d,
  wf_history sz limit (sys0 n) h = true ->
  snap (srv (run sz limit (sys0 n) h)) = Some (v, d) ->
  (v <= length (chain (srv (run sz limit (sys0 n) h))))%nat
  /\ d = cstate (chain (srv (run sz limit (sys0 n) h))) v.
Proof.
  intros sz limit n h v d Hwf. apply stored_snapshot_is_chain_state, Inv_reachable, Hwf.
Qed.

(** A snapshot is produced iff the version was accepted, the server's stated
    urgency reaches the replica's threshold (low, or high when avoiding
    snapshots) and no later batch is waiting. *)
Theorem C12_snapshot_gate : forall (sz : sop -> N) (limit : N) (x : sst) (p : resp),
  x_pc (sync_resume sz limit x p) = AtSnapUp <->
  exists v g, x_pc x = AtPush /\ p = PAddOk v g
    /\ drop (length (take_batch sz limit (x_local x))) (x_local x) = []
    /\ urg_geb g (if x_avoid x then UHigh else ULow) = true.
Proof. exact snapshot_gate. Qed.

(** A new, empty replica that starts from a snapshot and then applies the later
    versions ends, like every replica, in the replay of the whole chain. *)
Theorem C12_start_from_snapshot :
  forall (sz : sop -> N) (limit : N) (n : nat) (h : list event) i nd,
  wf_history sz limit (sys0 n) h = true ->
  nodes (run sz limit (sys0 n) h) !! i = Some nd ->
  r_pend (n_rep nd) = [] ->
  r_base (n_rep nd) = length (chain (srv (run sz limit (sys0 n) h))) ->
  r_tasks (n_rep nd) = applyl ∅ (concat (chain (srv (run sz limit (sys0 n) h)))).
Proof. exact converge. Qed.

(** Only an entirely empty replica asks for a snapshot ... *)
Theorem C12_only_empty_asks : forall (r : replica) (avoid wst : bool),
  x_pc (start_sync r avoid wst) = AtSnap ->
  r_tasks r = ∅ /\ r_pend r = [] /\ r_base r = 0 /\ wst = true.
Proof.
  intros r avoid wst H. apply empty_replica. destruct (rep_is_empty r wst) eqn:E; [reflexivity|].
  rewrite (nonempty_starts_pulling r avoid wst E) in H. discriminate.
Qed.

(** ... and a sync that is past that point never replaces the tasks: they only
    change by applying operations. *)
Theorem C12_nonempty_never_replaced : forall (sz : sop -> N) (limit : N) (x : sst) (p : resp),
  x_pc x <> AtSnap ->
  x_pc (sync_resume sz limit x p) <> AtSnap
  /\ exists l, x_tasks (sync_resume sz limit x p) = applyl (x_tasks x) l.
Proof. exact never_replaced. Qed.

Print Assumptions C12_snapshot_request_is_chain_state.
Print Assumptions C12_stored_snapshot_is_chain_state.
Print Assumptions C12_snapshot_gate.
Print Assumptions C12_start_from_snapshot.
Print Assumptions C12_only_empty_asks.
Print Assumptions C12_nonempty_never_replaced.
