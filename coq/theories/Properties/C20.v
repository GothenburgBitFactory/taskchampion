(** C20 — Expiration purges exactly the long-deleted tasks, everywhere. *)
From TC Require Import Model.Task Model.Rebase Proofs.TransformP Proofs.TaskP.
From Coq Require Import Strings.String.

(** Expiring removes precisely the tasks that expire and keeps every other
    task with its content. *)
Theorem C20_expire_exact : forall ts_min ts_max now (tasks : gmap N (gmap (list N) (list N))) u,
  expire_tasks ts_min ts_max now tasks !! u =
  match tasks !! u with
  | Some t => if expires ts_min ts_max now t then None else Some t
  | None => None
  end.
Proof. exact expire_exact. Qed.

(** A task expires iff its status is deleted and its modification time is a
    readable, representable timestamp more than 180 days in the past: pending,
    completed, recently modified tasks and tasks whose modification time is
    missing or unreadable are kept. *)
Theorem C20_expires_iff : forall ts_min ts_max now (t : gmap (list N) (list N)),
  expires ts_min ts_max now t = true <->
  t !! k_status = Some (s2l "deleted")
  /\ exists z, get_timestamp ts_min ts_max t (s2l "modified") = Some z /\ (z < now - 180 * 86400)%Z.
Proof. exact expires_iff. Qed.

(** The purge is recorded as ordinary deletions, and a deletion wins over any
    concurrent update of the task, whichever replica transforms: the update is
    dropped, the deletion is kept -- so a concurrent edit elsewhere does not
    bring the task back. *)
Theorem C20_delete_wins : forall u p v t,
  transform (SDelete u) (SUpdate u p v t) = (Some (SDelete u), None)
  /\ transform (SUpdate u p v t) (SDelete u) = (None, Some (SDelete u)).
Proof. intros. cbn. rewrite N.eqb_refl. auto. Qed.

(** On the chain the deletion is never followed by an update of that task
    that survives: in chain order the task is absent afterwards (that the
    converged state does not depend on who synchronises first is C03). *)
Theorem C20_deleted_stays_deleted : forall (s : db) u l,
  (forall o, In o l -> exists p v t, o = SUpdate u p v t) ->
  applyl (apply s (SDelete u)) l !! u = None.
Proof.
  intros s u l H. apply applyl_absent; [apply lookup_delete|].
  intros o Ho%elem_of_list_In ->. destruct (H _ Ho) as (p & v & t & [=]).
Qed.

Print Assumptions C20_expire_exact.
Print Assumptions C20_expires_iff.
Print Assumptions C20_delete_wins.
Print Assumptions C20_deleted_stays_deleted.
