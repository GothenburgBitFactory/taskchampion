(** C16 — SQLite and in-memory storage are observationally equivalent and persistent.
    The specification (Model/Storage.v) is the documented contract, which the
    in-memory storage implements literally; the SQL tables refine it. *)
From TC Require Import Model.SqlStore Proofs.SqlP Proofs.SqlWsP.

(** calls on tasks, base version and the operation log commute with the
    abstraction from tables to the specification's state *)
Theorem C16_tasks_and_log_refine : forall q u t o b,
  q_readonly q = false ->
  (forall r q', q_create_task q u = Some (r, q') -> create_task (absq q) u = (r, absq q'))
  /\ (forall q', q_set_task q u t = Some (tt, q') -> set_task (absq q) u t = absq q')
  /\ (forall r q', q_delete_task q u = Some (r, q') -> delete_task (absq q) u = (r, absq q'))
  /\ (forall q', q_set_base q b = Some (tt, q') -> set_base (absq q) b = absq q')
  /\ (forall q', q_add_operation q o = Some (tt, q') -> add_operation (absq q) o = absq q')
  /\ (forall q', q_sync_complete q = Some (tt, q') -> sync_complete (absq q) = absq q').
Proof. exact tasks_and_log_refine. Qed.

(** [remove_operation]: SQLite looks at the last unsynced row, the
    specification (and the in-memory storage) at the last row; they agree
    because synced rows always precede unsynced ones *)
Theorem C16_remove_operation_refines : forall q o,
  ops_sorted (q_ops q) -> q_readonly q = false ->
  match q_remove_operation q o with
  | Some (Some (_, q')) => remove_operation (absq q) o = Some (absq q')
  | Some None => remove_operation (absq q) o = None
  | None => False
  end.
Proof. exact remove_operation_refines. Qed.

Theorem C16_log_stays_sorted : forall l o,
  ops_sorted l -> ops_sorted (l ++ [(false, o)]).
Proof. exact ops_sorted_add. Qed.

(** a read-only handle refuses every modification *)
Theorem C16_readonly_refuses_all : forall q u t o b i x,
  q_readonly q = true ->
  q_create_task q u = None /\ q_set_task q u t = None /\ q_delete_task q u = None
  /\ q_set_base q b = None /\ q_add_operation q o = None /\ q_remove_operation q o = None
  /\ q_sync_complete q = None /\ q_add_to_working_set q u = None
  /\ q_set_working_set_item q i x = None /\ q_clear_working_set q = None.
Proof. exact readonly_refuses_all. Qed.

(** the working-set table (rows id -> uuid, length MAX(id)+1) against the
    specification's normalised vector: add returns the same index, set inside
    the vector and clear give the same vector -- by complete enumeration of all
    256 tables with ids 1..4 over three uuids (a kernel computation, valid for
    that scope; the three theorems after it hold for every table) *)
Theorem C16_working_set_table_small_scope : forallb ws_table_ok small_ws_tables = true.
Proof. exact ws_table_small_scope. Qed.

(** The working-set table in general (that there is no row 0, which the
    statements preserve, is needed for no refinement equation: it is what puts
    the abstracted vector into the normal form C15's write-back assumes): the SQL statements refine the specification's
    normalised vector -- add returns MAX(id)+1 and appends; set inside the vector
    (INSERT OR REPLACE / DELETE) is the update followed by normalisation, also
    when the last row goes and the vector shrinks to the largest remaining id;
    clear gives the empty vector. *)
Theorem C16_add_to_working_set_refines : forall q u n q',
  q_add_to_working_set q u = Some (n, q') ->
  add_to_working_set (absq q) u = (n, absq q') /\ (q_ws q !! 0%nat = None -> q_ws q' !! 0%nat = None).
Proof. exact add_to_working_set_refines. Qed.

Theorem C16_set_working_set_item_refines : forall q i x q',
  q_ws q !! 0%nat = None -> (1 <= i)%nat -> (i < length (st_ws (absq q)))%nat ->
  q_set_working_set_item q i x = Some (tt, q') ->
  set_working_set_item (absq q) i x = Some (absq q') /\ q_ws q' !! 0%nat = None.
Proof. exact set_working_set_item_refines. Qed.

Theorem C16_clear_working_set_refines : forall q q',
  q_clear_working_set q = Some (tt, q') ->
  clear_working_set (absq q) = absq q' /\ q_ws q' !! 0%nat = None.
Proof. exact clear_working_set_refines. Qed.

Print Assumptions C16_tasks_and_log_refine.
Print Assumptions C16_remove_operation_refines.
Print Assumptions C16_log_stays_sorted.
Print Assumptions C16_readonly_refuses_all.
Print Assumptions C16_working_set_table_small_scope.
Print Assumptions C16_add_to_working_set_refines.
Print Assumptions C16_set_working_set_item_refines.
Print Assumptions C16_clear_working_set_refines.
