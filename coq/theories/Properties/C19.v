(** C19 — Task mutators, their recorded operations and the task model agree. *)
From TC Require Import Model.TaskMut Proofs.TaskMutP Proofs.TagsP Proofs.UdaP Proofs.SynthP.
From Coq Require Import Strings.String.

(** For any sequence of mutator calls (refused ones change nothing) on a task
    as loaded from storage: committing the recorded updates, one at a time, to
    the stored task gives exactly the task the caller holds, and every recorded
    update carries the value the property really had before it. *)
Theorem C19_held_equals_stored : forall (nowstr : list N) (m0 : gmap (list N) (list N)) (um : bool) (l : list mutator),
  let s := run_mutators nowstr {| ts_map := m0; ts_um := um; ts_log := [] |} l in
  replay_log m0 (ts_log s) = ts_map s /\ true_old_values m0 (ts_log s).
Proof. exact held_equals_stored. Qed.

Theorem C19_mutator_keeps_agreement : forall nowstr m0 s m s',
  good m0 s -> run_mutator nowstr s m = Some s' -> good m0 s'.
Proof. exact mutator_good. Qed.

(** The modification time is refreshed by the first change of an editing
    session (one extra recorded update, before the change), not afterwards, and
    never when it is set explicitly. *)
Theorem C19_modified_once_first : forall nowstr s p v,
  ts_um s = false -> p <> s2l "modified" ->
  ts_log (set_value nowstr s p v) =
  ts_log s ++ [(s2l "modified", ts_map s !! s2l "modified", Some nowstr);
               (p, upd_map (ts_map s) (s2l "modified") (Some nowstr) !! p, v)].
Proof. exact set_value_log_fresh. Qed.

Theorem C19_modified_once_later : forall nowstr s p v,
  ts_um s = true -> ts_log (set_value nowstr s p v) = ts_log s ++ [(p, ts_map s !! p, v)].
Proof. exact set_value_log_again. Qed.

Theorem C19_modified_not_when_explicit : forall nowstr s v,
  ts_log (set_value nowstr s (s2l "modified") v) = ts_log s ++ [(s2l "modified", ts_map s !! s2l "modified", v)].
Proof. exact set_value_log_explicit. Qed.

Theorem C19_session_marked : forall nowstr s p v, ts_um (set_value nowstr s p v) = true.
Proof. reflexivity. Qed.

(** What is written reads back (tags, annotations, dependencies, UDAs and plain
    properties are all written through [set_value]). *)
Theorem C19_reads_back : forall nowstr s p v, ts_map (set_value nowstr s p v) !! p = v.
Proof. exact set_value_reads_back. Qed.

Theorem C19_others_untouched : forall nowstr s p v q,
  q <> p -> q <> s2l "modified" -> ts_map (set_value nowstr s p v) !! q = ts_map s !! q.
Proof. exact set_value_other. Qed.

(** Completing or deleting sets an end time; re-opening clears it. *)
Theorem C19_end_set_on_close : forall nowstr s st,
  (st = StCompleted \/ st = StDeleted) -> ts_map s !! s2l "end" = None ->
  ts_map (set_status nowstr s st) !! s2l "end" = Some nowstr.
Proof. exact end_set_on_close. Qed.

Theorem C19_end_cleared_on_reopen : forall nowstr s st,
  (st = StPending \/ st = StRecurring) -> ts_map (set_status nowstr s st) !! s2l "end" = None.
Proof. exact end_cleared_on_reopen. Qed.

Theorem C19_status_written : forall nowstr s st,
  ts_map (set_status nowstr s st) !! s2l "status" = Some (status_str st).
Proof. exact set_status_status. Qed.

(** Reserved names are rejected. *)
Theorem C19_reserved_uda_refused : forall nowstr s k v,
  is_known_key k = true ->
  run_mutator nowstr s (MSetUda k v) = None /\ run_mutator nowstr s (MRemoveUda k) = None.
Proof. exact reserved_uda_refused. Qed.

Theorem C19_synthetic_tag_refused : forall nowstr s t x,
  parse_tag t = Some (TSynthetic x) ->
  run_mutator nowstr s (MAddTag t) = None /\ run_mutator nowstr s (MRemoveTag t) = None.
Proof. exact synthetic_tag_refused. Qed.

(** Tags, dependencies and annotations written through the mutators are read
    back by the getters; adding or removing one tag leaves every other tag as
    it was. *)
Theorem C19_add_tag_has : forall nowstr s t s',
  run_mutator nowstr s (MAddTag t) = Some s' -> TUser t ∈ user_tags (ts_map s').
Proof. exact add_tag_has. Qed.

Theorem C19_remove_tag_gone : forall nowstr s t s',
  run_mutator nowstr s (MRemoveTag t) = Some s' -> TUser t ∉ user_tags (ts_map s').
Proof. exact remove_tag_gone. Qed.

Theorem C19_other_tags_untouched : forall nowstr s t s' tg (add : bool),
  run_mutator nowstr s (if add then MAddTag t else MRemoveTag t) = Some s' ->
  tg <> TUser t ->
  (tg ∈ user_tags (ts_map s') <-> tg ∈ user_tags (ts_map s)).
Proof. exact other_tags_untouched. Qed.

Theorem C19_add_dependency_has : forall nowstr (parse_uuid : list N -> option N) s u d s',
  run_mutator nowstr s (MAddDep u) = Some s' -> parse_uuid u = Some d ->
  d ∈ dependencies parse_uuid (ts_map s').
Proof. exact add_dependency_has. Qed.

Theorem C19_remove_dependency_gone : forall nowstr s u s',
  run_mutator nowstr s (MRemoveDep u) = Some s' ->
  ts_map s' !! (s2l "dep_" ++ u) = None.
Proof. exact remove_dependency_gone. Qed.

Theorem C19_add_annotation_stored : forall nowstr s ts d s',
  run_mutator nowstr s (MAddAnnotation ts d) = Some s' ->
  ts_map s' !! (s2l "annotation_" ++ ts) = Some d.
Proof. exact add_annotation_stored. Qed.

Theorem C19_remove_annotation_gone : forall nowstr s ts s',
  run_mutator nowstr s (MRemoveAnnotation ts) = Some s' ->
  ts_map s' !! (s2l "annotation_" ++ ts) = None.
Proof. exact remove_annotation_gone. Qed.

(** User-defined attributes read back as written: a set attribute is listed by
    [get_user_defined_attributes] with exactly the value written, a removed one
    is not listed, every other attribute is untouched (the refreshed "modified"
    is not an attribute), a reserved name is never listed, and a refused call
    is a no-op inside any sequence of calls. *)
Theorem C19_set_uda_listed : forall nowstr s k v s',
  run_mutator nowstr s (MSetUda k v) = Some s' -> (k, v) ∈ udas (ts_map s').
Proof. exact set_uda_listed. Qed.

Theorem C19_set_uda_only_value : forall nowstr s k v w s',
  run_mutator nowstr s (MSetUda k v) = Some s' -> (k, w) ∈ udas (ts_map s') -> w = v.
Proof. exact set_uda_only_value. Qed.

Theorem C19_remove_uda_gone : forall nowstr s k s' w,
  run_mutator nowstr s (MRemoveUda k) = Some s' -> (k, w) ∉ udas (ts_map s').
Proof. exact remove_uda_gone. Qed.

Theorem C19_other_udas_untouched : forall nowstr s k v s' (set : bool) q w,
  run_mutator nowstr s (if set then MSetUda k v else MRemoveUda k) = Some s' ->
  q <> k ->
  ((q, w) ∈ udas (ts_map s') <-> (q, w) ∈ udas (ts_map s)).
Proof. exact other_udas_untouched. Qed.

Theorem C19_reserved_never_listed : forall (m : tmap) k v,
  is_known_key k = true -> (k, v) ∉ udas m.
Proof. exact reserved_never_listed. Qed.

Theorem C19_refused_uda_is_noop : forall nowstr s k v l,
  is_known_key k = true ->
  run_mutators nowstr s (MSetUda k v :: l) = run_mutators nowstr s l /\
  run_mutators nowstr s (MRemoveUda k :: l) = run_mutators nowstr s l.
Proof. exact refused_uda_is_noop. Qed.

(** The synthetic tags and the dependency map reflect exactly the stored
    status, start/wait times and dependency keys. *)
Theorem C19_synth_status : forall ts_min ts_max now t dm u,
  (s2l "PENDING" ∈ synthetic_tags ts_min ts_max now t dm u <-> get_status t = StPending) /\
  (s2l "COMPLETED" ∈ synthetic_tags ts_min ts_max now t dm u <-> get_status t = StCompleted) /\
  (s2l "DELETED" ∈ synthetic_tags ts_min ts_max now t dm u <-> get_status t = StDeleted).
Proof. intros. split; [apply synth_pending|split; [apply synth_completed|apply synth_deleted]]. Qed.

Theorem C19_synth_active : forall ts_min ts_max now t dm u,
  s2l "ACTIVE" ∈ synthetic_tags ts_min ts_max now t dm u <-> is_Some (t !! s2l "start").
Proof. exact synth_active. Qed.

Theorem C19_synth_waiting : forall ts_min ts_max now t dm u,
  s2l "WAITING" ∈ synthetic_tags ts_min ts_max now t dm u <->
  exists z, get_timestamp ts_min ts_max t (s2l "wait") = Some z /\ (now < z)%Z.
Proof. exact synth_waiting. Qed.

Theorem C19_synth_blocked : forall ts_min ts_max now t dm u,
  (s2l "BLOCKED" ∈ synthetic_tags ts_min ts_max now t dm u <-> exists d, (u, d) ∈ dm) /\
  (s2l "UNBLOCKED" ∈ synthetic_tags ts_min ts_max now t dm u <-> ~ exists d, (u, d) ∈ dm) /\
  (s2l "BLOCKING" ∈ synthetic_tags ts_min ts_max now t dm u <-> exists a, (a, u) ∈ dm).
Proof. intros. split; [apply synth_blocked|split; [apply synth_unblocked|apply synth_blocking]]. Qed.

Theorem C19_synth_only_names : forall ts_min ts_max now t dm u x,
  x ∈ synthetic_tags ts_min ts_max now t dm u -> x ∈ synthetic_names.
Proof. exact synth_only_names. Qed.

Theorem C19_depmap_exact : forall parse_uuid (tasks : gmap N tmap) ws u d,
  (u, d) ∈ depmap parse_uuid tasks ws <->
  Some u ∈ tail ws /\ exists t, tasks !! u = Some t /\ d ∈ dependencies parse_uuid t /\ is_pending_task tasks d = true.
Proof. exact depmap_elem. Qed.

Theorem C19_gone_or_closed_blocks_nobody : forall parse_uuid (tasks : gmap N tmap) ws u d,
  (tasks !! d = None \/ exists t, tasks !! d = Some t /\ t !! k_status <> Some (s2l "pending")) ->
  (u, d) ∉ depmap parse_uuid tasks ws.
Proof. exact gone_or_closed_blocks_nobody. Qed.

(** Repeated application: replaying a log of recorded updates is idempotent
    on every stored task, so committing the operations recorded by any
    sequence of mutator calls a second time still leaves the stored task
    identical to the task the caller holds. *)
Theorem C19_replay_idempotent : forall (l : list (list N * option (list N) * option (list N))) (m : gmap (list N) (list N)),
  replay_log (replay_log m l) l = replay_log m l.
Proof. exact replay_idempotent. Qed.

Theorem C19_repeated_application : forall (nowstr : list N) (m0 : gmap (list N) (list N)) (um : bool) (l : list mutator),
  let s := run_mutators nowstr {| ts_map := m0; ts_um := um; ts_log := [] |} l in
  replay_log (replay_log m0 (ts_log s)) (ts_log s) = ts_map s.
Proof. exact repeated_application. Qed.

(** The synthetic tags follow the mutators: after [set_status] the task
    carries exactly the status tag of the status written; [start] makes it
    ACTIVE, [stop] takes ACTIVE away. *)
Theorem C19_status_tag_follows : forall nowstr ts_min ts_max now s dm u,
  (s2l "PENDING" ∈ synthetic_tags ts_min ts_max now (ts_map (set_status nowstr s StPending)) dm u) /\
  (s2l "COMPLETED" ∈ synthetic_tags ts_min ts_max now (ts_map (set_status nowstr s StCompleted)) dm u) /\
  (s2l "DELETED" ∈ synthetic_tags ts_min ts_max now (ts_map (set_status nowstr s StDeleted)) dm u).
Proof. exact status_tag_follows. Qed.

Theorem C19_status_tag_exclusive : forall nowstr ts_min ts_max now s dm u,
  s2l "PENDING" ∉ synthetic_tags ts_min ts_max now (ts_map (set_status nowstr s StCompleted)) dm u /\
  s2l "PENDING" ∉ synthetic_tags ts_min ts_max now (ts_map (set_status nowstr s StDeleted)) dm u /\
  s2l "COMPLETED" ∉ synthetic_tags ts_min ts_max now (ts_map (set_status nowstr s StPending)) dm u /\
  s2l "COMPLETED" ∉ synthetic_tags ts_min ts_max now (ts_map (set_status nowstr s StDeleted)) dm u /\
  s2l "DELETED" ∉ synthetic_tags ts_min ts_max now (ts_map (set_status nowstr s StPending)) dm u /\
  s2l "DELETED" ∉ synthetic_tags ts_min ts_max now (ts_map (set_status nowstr s StCompleted)) dm u.
Proof. exact status_tag_exclusive. Qed.

Theorem C19_start_makes_active : forall nowstr ts_min ts_max now s s' dm u,
  run_mutator nowstr s MStart = Some s' -> s2l "ACTIVE" ∈ synthetic_tags ts_min ts_max now (ts_map s') dm u.
Proof. exact start_makes_active. Qed.

Theorem C19_stop_clears_active : forall nowstr ts_min ts_max now s s' dm u,
  run_mutator nowstr s MStop = Some s' -> s2l "ACTIVE" ∉ synthetic_tags ts_min ts_max now (ts_map s') dm u.
Proof. exact stop_clears_active. Qed.

Print Assumptions C19_held_equals_stored.
Print Assumptions C19_mutator_keeps_agreement.
Print Assumptions C19_modified_once_first.
Print Assumptions C19_modified_once_later.
Print Assumptions C19_modified_not_when_explicit.
Print Assumptions C19_session_marked.
Print Assumptions C19_reads_back.
Print Assumptions C19_others_untouched.
Print Assumptions C19_end_set_on_close.
Print Assumptions C19_end_cleared_on_reopen.
Print Assumptions C19_status_written.
Print Assumptions C19_reserved_uda_refused.
Print Assumptions C19_synthetic_tag_refused.
Print Assumptions C19_add_tag_has.
Print Assumptions C19_remove_tag_gone.
Print Assumptions C19_other_tags_untouched.
Print Assumptions C19_add_dependency_has.
Print Assumptions C19_remove_dependency_gone.
Print Assumptions C19_add_annotation_stored.
Print Assumptions C19_remove_annotation_gone.
Print Assumptions C19_set_uda_listed.
Print Assumptions C19_set_uda_only_value.
Print Assumptions C19_remove_uda_gone.
Print Assumptions C19_other_udas_untouched.
Print Assumptions C19_reserved_never_listed.
Print Assumptions C19_refused_uda_is_noop.
Print Assumptions C19_synth_status.
Print Assumptions C19_synth_active.
Print Assumptions C19_synth_waiting.
Print Assumptions C19_synth_blocked.
Print Assumptions C19_synth_only_names.
Print Assumptions C19_depmap_exact.
Print Assumptions C19_gone_or_closed_blocks_nobody.
Print Assumptions C19_replay_idempotent.
Print Assumptions C19_repeated_application.
Print Assumptions C19_status_tag_follows.
Print Assumptions C19_status_tag_exclusive.
Print Assumptions C19_start_makes_active.
Print Assumptions C19_stop_clears_active.
