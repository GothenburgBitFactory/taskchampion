(** C01 — Replicas converge after any history of edits and syncs. *)
From TC Require Import Model.Sync Proofs.TransformP Proofs.RebaseP Proofs.SyncP.

(** The transform completes the diamond on every state where both operations
    are valid, and keeps them valid. *)
Theorem C01_tp1 : forall (s : db) (a b : sop),
  validb s a = true -> validb s b = true ->
  let '(a', b') := transform a b in
  applyo (apply s a) b' = applyo (apply s b) a'
  /\ valido (apply s a) b' = true /\ valido (apply s b) a' = true.
Proof. exact tp1. Qed.

(** Rebasing any valid list of local operations over any valid version closes
    the diamond for whole lists. *)
Theorem C01_rebase_diamond : forall (v l : list sop) (s : db),
  valid_seqb s v = true -> valid_seqb s l = true ->
  let '(v', l') := rebase transform v l in
  applyl (applyl s l) v' = applyl (applyl s v) l'
  /\ valid_seqb (applyl s v) l' = true /\ valid_seqb (applyl s l) v' = true.
Proof. exact rebase_diamond. Qed.

(** The replica invariant holds after every history: any number of replicas,
    any commits of valid batches, sync requests of different replicas in any
    interleaving, abandoned syncs and lost replies, any batching size function
    and limit (so also when pending changes are sent as several versions). *)
Theorem C01_invariant : forall (sz : sop -> N) (limit : N) (n : nat) (h : list event),
  wf_history sz limit (sys0 n) h = true -> Inv (run sz limit (sys0 n) h).
Proof. exact Inv_reachable. Qed.

(** Every replica that has nothing left to send and whose base is the
    server's latest version holds exactly the replay of the server's versions,
    in order, on the empty task set; hence all such replicas are equal. *)
Theorem C01_converge : forall (sz : sop -> N) (limit : N) (n : nat) (h : list event) i nd,
  wf_history sz limit (sys0 n) h = true ->
  nodes (run sz limit (sys0 n) h) !! i = Some nd ->
  r_pend (n_rep nd) = [] ->
  r_base (n_rep nd) = length (chain (srv (run sz limit (sys0 n) h))) ->
  r_tasks (n_rep nd) = applyl ∅ (concat (chain (srv (run sz limit (sys0 n) h)))).
Proof. exact converge. Qed.

Print Assumptions C01_tp1.
Print Assumptions C01_rebase_diamond.
Print Assumptions C01_invariant.
Print Assumptions C01_converge.
