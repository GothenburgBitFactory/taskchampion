(** C04 — An interrupted sync loses nothing and can simply be repeated. *)
From TC Require Import Model.Sync Proofs.SyncP Proofs.SyncP2.

(** An error before the effect, a process stop ([EAbandon]) or a lost reply
    ([ELost]) at any request leaves the stored replica exactly as it was. *)
Theorem C04_fault_leaves_before_state :
  forall (sz : sop -> N) (limit : N) (s : sys) i g nd e,
  e = EAbandon i \/ e = ELost i g ->
  nodes s !! i = Some nd ->
  exists nd', nodes (sys_step sz limit s e) !! i = Some nd' /\ n_rep nd' = n_rep nd.
Proof. exact fault_keeps_replica. Qed.

(** So does every request of a sync that has not (yet) finished successfully:
    the stored replica changes only at the final commit. *)
Theorem C04_uncommitted_invisible :
  forall (sz : sop -> N) (limit : N) (s : sys) i g nd,
  nodes s !! i = Some nd ->
  results (sys_step sz limit s (EStep i g)) = results s ->
  exists nd', nodes (sys_step sz limit s (EStep i g)) !! i = Some nd' /\ n_rep nd' = n_rep nd.
Proof. exact unfinished_step_keeps_replica. Qed.

(** The replica invariant holds after any history with any number of faults
    at any points (the chain may have grown by a version whose reply was lost). *)
Theorem C04_invariant_with_faults :
  forall (sz : sop -> N) (limit : N) (n : nat) (h : list event),
  wf_history sz limit (sys0 n) h = true -> Inv (run sz limit (sys0 n) h).
Proof. exact Inv_reachable. Qed.

(** A replica that pulls a version made of the first part of its own pending
    operations consumes exactly that part and applies nothing: the accepted
    batch is not sent or applied a second time. *)
Theorem C04_self_cancel : forall (x y : list sop),
  rebase transform x (x ++ y) = ([], y).
Proof. exact self_cancel. Qed.

(** After faults, syncing again never gets stuck, and reaches the replay of
    the chain. *)
Theorem C04_never_stuck :
  forall (sz : sop -> N) (limit : N) (n : nat) (h : list event) i r,
  wf_history sz limit (sys0 n) h = true ->
  In (i, r) (results (run sz limit (sys0 n) h)) -> r = SyncOk.
Proof. exact no_out_of_sync. Qed.

Theorem C04_resync_converges :
  forall (sz : sop -> N) (limit : N) (n : nat) (h : list event) i nd,
  wf_history sz limit (sys0 n) h = true ->
  nodes (run sz limit (sys0 n) h) !! i = Some nd ->
  r_pend (n_rep nd) = [] ->
  r_base (n_rep nd) = length (chain (srv (run sz limit (sys0 n) h))) ->
  r_tasks (n_rep nd) = applyl ∅ (concat (chain (srv (run sz limit (sys0 n) h)))).
Proof. exact converge. Qed.

Print Assumptions C04_fault_leaves_before_state.
Print Assumptions C04_uncommitted_invisible.
Print Assumptions C04_invariant_with_faults.
Print Assumptions C04_self_cancel.
Print Assumptions C04_never_stuck.
Print Assumptions C04_resync_converges.
