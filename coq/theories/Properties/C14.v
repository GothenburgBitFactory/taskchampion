(** C14 — What is sent to the server is the documented operation format only. *)
From TC Require Import Model.Sync Model.Json Proofs.SyncP Proofs.SyncP2 Proofs.WireP.

(** Everything a sync pushes is a prefix of its rebased list ... *)
Theorem C14_pushed_is_prefix : forall (sz : sop -> N) (limit : N) (x : sst) b ops,
  sync_next sz limit x = inl (RAddVersion b ops) -> ops `prefix_of` x_local x.
Proof. intros. eapply push_is_prefix_of_rebased. eassumption. Qed.

(** ... which starts as the sync form of the unsynchronised operations, in
    order, and only ever loses elements ... *)
Theorem C14_starts_as_sync_form : forall (r : replica) (avoid wst : bool),
  x_local (start_sync r avoid wst) = sync_form (r_pend r).
Proof. reflexivity. Qed.

Theorem C14_only_loses : forall (sz : sop -> N) (limit : N) (x : sst) (p : resp),
  sublist (x_local (sync_resume sz limit x p)) (x_local x).
Proof. exact sync_resume_local_sublist. Qed.

(** ... and the sync form contains only images of committed operations under
    [from_op]: Create, Delete, Update with task id, property, new value and
    timestamp; undo points, old values and old tasks have no representation. *)
Theorem C14_sync_form_sources : forall (l : list op) (o : sop),
  o ∈ sync_form l -> exists o', o' ∈ l /\ from_op o' = Some o.
Proof. intros l o. apply elem_of_list_omap. Qed.

Theorem C14_sync_form_keeps_order : forall l1 l2, sync_form (l1 ++ l2) = sync_form l1 ++ sync_form l2.
Proof. exact sync_form_app. Qed.

(** The documented JSON form round-trips through the tolerant reader, given
    that the text forms of uuids, strings and timestamps do ... *)
Theorem C14_from_to :
  forall (enc_uuid : N -> list N) dec_uuid (enc_str : N -> list N) dec_str (enc_ts : Z -> list N) dec_ts,
  (forall u, dec_uuid (enc_uuid u) = Some u) ->
  (forall s, dec_str (enc_str s) = Some s) ->
  (forall t, dec_ts (enc_ts t) = Some t) ->
  forall ops,
  version_of_json dec_uuid dec_str dec_ts (version_to_json enc_uuid enc_str enc_ts ops) = Some ops.
Proof. exact version_from_to. Qed.

(** ... and the reader does not depend on the order of the fields. *)
Theorem C14_reader_order_insensitive :
  forall dec_uuid dec_str dec_ts k body body',
  NoDup body.*1 -> body ≡ₚ body' ->
  op_of_json dec_uuid dec_str dec_ts (JObj [(k, JObj body)])
  = op_of_json dec_uuid dec_str dec_ts (JObj [(k, JObj body')]).
Proof. exact reader_order_insensitive. Qed.

(** A version written by another implementation, valid on the latest state, is
    applied like any other: the invariant and convergence hold for histories
    containing [EForeign] events. *)
Theorem C14_foreign_version_applied :
  forall (sz : sop -> N) (limit : N) (n : nat) (h : list event),
  wf_history sz limit (sys0 n) h = true -> Inv (run sz limit (sys0 n) h).
Proof. exact Inv_reachable. Qed.

Print Assumptions C14_pushed_is_prefix.
Print Assumptions C14_starts_as_sync_form.
Print Assumptions C14_only_loses.
Print Assumptions C14_sync_form_sources.
Print Assumptions C14_sync_form_keeps_order.
Print Assumptions C14_from_to.
Print Assumptions C14_reader_order_insensitive.
Print Assumptions C14_foreign_version_applied.
