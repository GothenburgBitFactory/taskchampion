(** C18 — Reading tasks never panics, whatever the stored data.
    The model of the readers (Model/Task.v) is total by construction: every
    conversion that can fail in the code (integer parsing, calendar range,
    tag syntax, uuid syntax) is an [option] whose [None] branch skips the
    item.  The theorems state what is read from uninterpretable content. *)
From TC Require Import Model.Task Proofs.TaskP.
From Coq Require Import Strings.String.

(** A stored value is read as a timestamp exactly when it is an integer in
    Rust's i64 syntax inside the representable range; anything else -- text,
    out-of-range or astronomically large numbers -- reads as absent. *)
Theorem C18_get_timestamp_spec : forall ts_min ts_max (t : gmap (list N) (list N)) p,
  get_timestamp ts_min ts_max t p =
  match t !! p with
  | Some v => match parse_i64 v with
              | Some z => if (Z.leb ts_min z && Z.leb z ts_max)%bool then Some z else None
              | None => None
              end
  | None => None
  end.
Proof. reflexivity. Qed.

Theorem C18_timestamps_in_range : forall ts_min ts_max t p z,
  get_timestamp ts_min ts_max t p = Some z -> (ts_min <= z <= ts_max)%Z.
Proof. exact get_timestamp_in_range. Qed.

Theorem C18_parse_i64_range : forall s z,
  parse_i64 s = Some z -> (-9223372036854775808 <= z <= 9223372036854775807)%Z.
Proof. exact parse_i64_range. Qed.

(** Annotation keys whose suffix is not a representable time are skipped. *)
Theorem C18_annotations_in_range : forall ts_min ts_max t z d,
  (z, d) ∈ annotations ts_min ts_max t -> (ts_min <= z <= ts_max)%Z.
Proof. exact annotations_in_range. Qed.

(** Unknown statuses are preserved as unknown. *)
Theorem C18_status_unknown : forall v,
  v <> s2l "pending" -> v <> s2l "completed" -> v <> s2l "deleted" -> v <> s2l "recurring" ->
  status_of v = StUnknown v.
Proof. exact status_unknown. Qed.

Print Assumptions C18_get_timestamp_spec.
Print Assumptions C18_timestamps_in_range.
Print Assumptions C18_parse_i64_range.
Print Assumptions C18_annotations_in_range.
Print Assumptions C18_status_unknown.
