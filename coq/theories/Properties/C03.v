(** C03 — No lost updates; documented conflict winners, independent of sync order. *)
From TC Require Import Model.Rebase Proofs.ConflictP Proofs.Tp2P.

(** The complete conflict table: on operations valid in a common state each
    operation survives the transformation unless the other one has the same
    effect (two creations, two deletions, two identical updates) or beats it
    (a deletion beats an update of the task; of two updates of one property the
    greater (timestamp, value) beats the other).  In particular operations on
    different tasks or different properties never affect each other. *)
Theorem C03_transform_table : forall (s : db) (a b : sop),
  validb s a = true -> validb s b = true ->
  transform a b =
  (if same_effect a b || beats b a then None else Some a,
   if same_effect a b || beats a b then None else Some b).
Proof. exact transform_table. Qed.

(** List level: a local operation survives the rebase over a pulled version
    unless some operation of that version beats it or has the same effect. *)
Theorem C03_kept_or_documented : forall (v l : list sop) (s : db) (lo : sop),
  valid_seqb s v = true -> valid_seqb s l = true ->
  In lo l ->
  (forall so, In so v -> same_effect so lo = false /\ beats so lo = false) ->
  In lo (rebase transform v l).2.
Proof. exact rebase_kept. Qed.

(** and nothing is ever invented or changed by a rebase *)
Theorem C03_rebase_only_drops : forall (v l : list sop), sublist (rebase transform v l).2 l.
Proof. exact RebaseP.rebase_sublist. Qed.

(** The winner does not depend on who transforms: the table is symmetric ... *)
Theorem C03_transform_symmetric : forall a b, transform b a = swap_pair (transform a b).
Proof. exact transform_symmetric. Qed.

(** ... the whole grid is ... *)
Theorem C03_rebase_symmetric : forall l v,
  rebase transform l v = swap_pair (rebase transform v l).
Proof. exact rebase_symmetric. Qed.

(** ... so two replicas with arbitrary concurrent valid changes reach the same
    state whichever synchronises first. *)
Theorem C03_order_independent_2 : forall (s : db) (la lb : list sop),
  valid_seqb s la = true -> valid_seqb s lb = true ->
  applyl (applyl s la) (rebase transform la lb).2
  = applyl (applyl s lb) (rebase transform lb la).2.
Proof. exact order_independent_2. Qed.

(** A change made after seeing another one overrides it regardless of timestamps. *)
Theorem C03_causal_override : forall s u p va ta vb tb,
  apply (apply s (SUpdate u p va ta)) (SUpdate u p vb tb) = apply s (SUpdate u p vb tb).
Proof. exact sequential_override. Qed.

(** TP2 for single operations valid in a common state: what is left of [c]
    after [a] and [b] does not depend on which of the two went first. *)
Theorem C03_tp2 : forall (s : db) (a b c : sop),
  validb s a = true -> validb s b = true -> validb s c = true ->
  (tfo (transform c a).1 (transform b a).1).1 = (tfo (transform c b).1 (transform a b).1).1.
Proof. exact tp2. Qed.

(** Three replicas with arbitrary concurrent valid lists: the converged state is
    the same for all six orders in which they synchronise.  [sync3 s x y z] is
    the state after x, y, z synchronised in this order (the chain holds x, then
    y rebased over it, then z rebased over both).  Proved from [C03_tp2],
    lifted to lists through the residual algebra of [rebase] (Proofs/Tp2P.v,
    [cube_lists]); it is the case of three lists of [order_independent] there,
    which holds for any number of replicas. *)
Theorem C03_order_independent_3 : forall (s : db) (la lb lc : list sop),
  valid_seqb s la = true -> valid_seqb s lb = true -> valid_seqb s lc = true ->
  sync3 s la lb lc = sync3 s la lc lb /\ sync3 s la lb lc = sync3 s lb la lc
  /\ sync3 s la lb lc = sync3 s lb lc la /\ sync3 s la lb lc = sync3 s lc la lb
  /\ sync3 s la lb lc = sync3 s lc lb la.
Proof. exact order_independent_3. Qed.

(** [sync3] in the vocabulary of [rebase] *)
Theorem C03_sync3_is_rebase : forall (s : db) (la lb lc : list sop),
  sync3 s la lb lc =
  applyl (applyl (applyl s la) (rebase transform la lb).2)
         (rebase transform (rebase transform la lb).2 (rebase transform la lc).2).2.
Proof. reflexivity. Qed.


Print Assumptions C03_transform_table.
Print Assumptions C03_kept_or_documented.
Print Assumptions C03_rebase_only_drops.
Print Assumptions C03_transform_symmetric.
Print Assumptions C03_rebase_symmetric.
Print Assumptions C03_order_independent_2.
Print Assumptions C03_causal_override.
Print Assumptions C03_tp2.
Print Assumptions C03_order_independent_3.
Print Assumptions C03_sync3_is_rebase.
