(** C15 — The working set lists exactly the pending tasks, with stable numbering. *)
From TC Require Import Model.TaskDb Proofs.CommitP Proofs.WorkingSetP Proofs.WorkingSetSmall Proofs.WriteBackP.

(** [rebuild_spec_ws] is the working set a rebuild produces
    ([C15_rebuild_writes_spec] below).  It lists precisely the tasks satisfying
    the predicate (status pending or recurring) ... *)
Theorem C15_ws_exact : forall (in_ws : gmap N N -> bool) all (s : store) (renumber : bool) (u : N),
  (forall v t, (v, t) ∈ all <-> st_tasks s !! v = Some t) ->
  Some u ∈ rebuild_spec_ws in_ws all s renumber <-> wanted in_ws s u.
Proof. exact ws_exact. Qed.

(** ... position 0 is empty ... *)
Theorem C15_position_zero : forall in_ws all s renumber,
  rebuild_spec_ws in_ws all s renumber !! 0 = Some None.
Proof. reflexivity. Qed.

(** ... without renumbering every remaining task keeps its number ... *)
Theorem C15_ws_stable : forall in_ws all (s : store) (i : nat) (u : N),
  st_ws s !! S i = Some (Some u) -> wanted in_ws s u ->
  rebuild_spec_ws in_ws all s false !! S i = Some (Some u).
Proof. exact ws_stable. Qed.

(** ... newcomers come after the retained part (hence after all numbers in use) ... *)
Theorem C15_newcomers_after : forall in_ws all (s : store) (renumber : bool) (i : nat),
  (length (normalize_ws (None :: scan_old in_ws s renumber (tail (st_ws s)))) <= i)%nat ->
  rebuild_spec_ws in_ws all s renumber !! i =
  newcomers in_ws s (scan_old in_ws s renumber (tail (st_ws s))) all
    !! (i - length (normalize_ws (None :: scan_old in_ws s renumber (tail (st_ws s)))))%nat.
Proof. exact ws_newcomers_after. Qed.

(** ... and with renumbering the remaining tasks, in their old relative order,
    followed by the newcomers, occupy 1..n without gaps. *)
Theorem C15_ws_compact : forall in_ws all (s : store),
  rebuild_spec_ws in_ws all s true =
  None :: filter (fun x => keep_entry in_ws s x = true) (tail (st_ws s))
       ++ newcomers in_ws s (filter (fun x => keep_entry in_ws s x = true) (tail (st_ws s))) all
  /\ (forall x, x ∈ tail (rebuild_spec_ws in_ws all s true) -> x <> None).
Proof. exact ws_compact. Qed.

(** A commit only appends to the working set: existing numbers are undisturbed. *)
Theorem C15_commit_appends : forall (status : N) (is_pr : N -> bool) (s : store) (ops : list op),
  exists added, st_ws (commit_operations status is_pr s ops) = st_ws s ++ map Some added
    /\ NoDup added
    /\ (forall u, u ∈ added -> u ∈ omap (adds_to_ws status is_pr) ops /\ Some u ∉ st_ws s)
    /\ (forall u, u ∈ omap (adds_to_ws status is_pr) ops ->
                  Some u ∈ st_ws (commit_operations status is_pr s ops)).
Proof. intros. pose proof (commit_spec status is_pr s ops) as (_ & _ & _ & _ & H). exact H. Qed.

(** An independent check of [C15_rebuild_writes_spec] below: the write-back of
    [rebuild] produces [rebuild_spec_ws] and touches neither tasks nor the
    operation log, by complete enumeration of the small scope described in
    Proofs/WorkingSetSmall.v (1836 cases). *)
Theorem C15_writeback_small_scope : forallb writeback_ok small_cases = true.
Proof. exact writeback_small_scope. Qed.

(** Each task is listed once: a rebuild of a duplicate-free working set is
    duplicate-free (the tasks listed by [all_tasks] are distinct). *)
Theorem C15_ws_no_duplicates : forall (in_ws : gmap N N -> bool) all s renumber,
  NoDup (omap id (st_ws s)) -> NoDup (map fst all) ->
  NoDup (omap id (rebuild_spec_ws in_ws all s renumber)).
Proof. exact ws_no_duplicates. Qed.

(** The write-back of [rebuild] through the storage calls -- the zip over old
    and new entries with [set_working_set_item] (whose vector is re-normalised
    after every call), then blanking or appending the rest -- succeeds and
    produces [rebuild_spec_ws], touching nothing else, for EVERY store whose
    working set is in the storage's normal form (position 0 blank, no trailing
    blank), every listing order and both modes; and the result is again in
    normal form. *)
Theorem C15_rebuild_writes_spec : forall (in_ws : gmap N N -> bool) all s renumber,
  ws_normal (st_ws s) ->
  exists s', rebuild_with in_ws all s renumber = Some s'
    /\ st_ws s' = rebuild_spec_ws in_ws all s renumber
    /\ st_tasks s' = st_tasks s /\ st_base s' = st_base s /\ st_ops s' = st_ops s.
Proof. exact rebuild_writes_spec. Qed.

Theorem C15_rebuild_result_is_normal : forall (in_ws : gmap N N -> bool) all s renumber,
  ws_normal (rebuild_spec_ws in_ws all s renumber).
Proof. exact rebuild_spec_normal. Qed.

Print Assumptions C15_ws_exact.
Print Assumptions C15_position_zero.
Print Assumptions C15_ws_stable.
Print Assumptions C15_newcomers_after.
Print Assumptions C15_ws_compact.
Print Assumptions C15_commit_appends.
Print Assumptions C15_writeback_small_scope.
Print Assumptions C15_ws_no_duplicates.
Print Assumptions C15_rebuild_writes_spec.
Print Assumptions C15_rebuild_result_is_normal.
