(** C17 — Concurrent handles on one SQLite replica serialise without loss.
    Proved, for any number of handles and every schedule of their events under
    the lock discipline of the SQLite storage (a transaction holds the write
    lock from its begin to its end; a begin without the lock is refused): the
    stored state is the one-at-a-time application of the committed
    transactions in commit order, abandoned and refused work contributes
    nothing, and for batches committed through TaskDb the recorded operations
    are the committed batches whole and once each, replay to the stored tasks,
    and no working-set entry is duplicated; with working-set rebuilds among
    the calls the replay and no-duplicate clauses still hold and the working
    set stays in normal form; nothing moves while another handle holds the
    lock, and a serial trace is the history of one handle.  That SQLite enforces the lock
    between threads and processes is a runtime fact, sampled by the check. *)
From TC Require Import Model.TaskDb Model.Conc Model.Txn Proofs.ConcP Proofs.ConcDbP Proofs.ConcDb2P.

Theorem C17_serial_equivalence : forall (S C : Type) (step : S -> C -> S) s l,
  cpersist (crun step {| cpersist := s; cholder := None |} l)
  = fold_left (atomic step) (committed None l) s.
Proof. exact @serial_equivalence. Qed.

Theorem C17_invariant_of_transactions : forall (S C : Type) (step : S -> C -> S) (Inv : S -> Prop) s l,
  Inv s ->
  (forall cs s', cs ∈ committed None l -> Inv s' -> Inv (atomic step s' cs)) ->
  Inv (cpersist (crun step {| cpersist := s; cholder := None |} l)).
Proof. exact @invariant_of_transactions. Qed.

Theorem C17_nothing_moves_under_a_held_lock : forall (S C : Type) (step : S -> C -> S) l st h w,
  cholder st = Some (h, w) -> Forall (fun e => e.1 <> h) l -> crun step st l = st.
Proof. exact @persistent_frozen_while_held. Qed.

Theorem C17_serial_is_single_handle : forall (S C : Type) (step : S -> C -> S) l st t open,
  tagrees st t open -> serial open l = true ->
  cpersist (crun step st l) = persistent (trun step t (map forget l)).
Proof. exact @serial_is_single_handle. Qed.

Theorem C17_concurrent_commits : forall (status : N) (is_pr : N -> bool) (base : db) (s : store) l,
  db_inv base s ->
  let s' := cpersist (crun (cstepdb status is_pr) {| cpersist := s; cholder := None |} l) in
  db_inv base s'
  /\ unsynced s' = unsynced s ++ concat (concat (committed None l)).
Proof. exact concurrent_commits. Qed.

(** The same with working-set rebuilds among the committed calls (a rebuild is
    given the listing of the tasks its transaction read): tasks = replay of the
    recorded operations, no working-set entry twice, the working set in the
    storage's normal form -- in every state reachable by any schedule. *)
Theorem C17_concurrent_commits_and_rebuilds : forall (status : N) (is_pr : N -> bool) (base : db) (s : store) l,
  db_inv2 base s ->
  db_inv2 base (cpersist (crun (dstep status is_pr) {| cpersist := s; cholder := None |} l)).
Proof. exact concurrent_commits_and_rebuilds. Qed.

Print Assumptions C17_serial_equivalence.
Print Assumptions C17_invariant_of_transactions.
Print Assumptions C17_nothing_moves_under_a_held_lock.
Print Assumptions C17_serial_is_single_handle.
Print Assumptions C17_concurrent_commits.
Print Assumptions C17_concurrent_commits_and_rebuilds.
