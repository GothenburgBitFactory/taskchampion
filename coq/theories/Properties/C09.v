(** C09 — Object-store server keeps one version chain under concurrent clients.

    Proved: an inductive invariant ([CInv], Proofs/CloudInvP.v) of the system
    made of the object store and any number of client machines (add-version,
    get-child-version, add-snapshot, get-snapshot), preserved by every single
    object-store request of every client, by clients being dropped anywhere and
    by requests that take effect and whose reply is lost -- hence true in every
    state reachable by any schedule -- and its consequences: one accepted child
    per parent, accepted versions stay on the chain, get-child-version serves
    only the chain child with the submitted bytes (never a race loser), a
    rejection names a version that has been the latest.  Also the mechanism
    lemmas about single requests.  Cleanup is not part of this system (C10).
    Assumption written into the system: an add-version call names as parent the
    nil version or a version that has been [latest] (clients only learn version
    ids from a server), and new version ids are fresh. *)
From TC Require Import Model.Cloud Proofs.CloudP Proofs.CloudInvP.

(** [latest] changes only by a compare-and-swap whose expected value is the
    current one; so a version is committed only by a successful swap. *)
Theorem C09_latest_changes_only_by_cas : forall rank pagesz now st q,
  o_latest (ostore_step rank pagesz now st q).2 <> o_latest st ->
  exists old new, q = QCasLatest old new /\ o_latest st = old
                  /\ o_latest (ostore_step rank pagesz now st q).2 = Some new.
Proof. exact latest_changes_only_by_cas. Qed.

(** Once a swap from [old] has succeeded, any other swap expecting [old] fails:
    at most one child per parent is accepted. *)
Theorem C09_one_swap_per_parent : forall rank pagesz now st old new1 new2,
  new1 <> default new1 old -> Some new1 <> old ->
  (ostore_step rank pagesz now st (QCasLatest old new1)).1 = PBool true ->
  (ostore_step rank pagesz now (ostore_step rank pagesz now st (QCasLatest old new1)).2
               (QCasLatest old new2)).1 = PBool false.
Proof. intros rank pagesz now st old new1 new2 _. apply cas_excludes. Qed.

(** The add-version routine swaps only at one point, from exactly the value it
    read first, which is its parent whenever a latest version existed ... *)
Theorem C09_swap_shape : forall (c : cpc) q,
  cl_next c = inl q -> (exists old new, q = QCasLatest old new) ->
  exists p c0 pl l, c = A2 p c0 pl l /\ q = QCasLatest l c0.
Proof. exact add_version_swap_shape. Qed.

Theorem C09_parent_is_latest : forall rank threshold p c pl r l,
  cl_resume rank threshold (A0 p c pl) r = A1 p c pl l -> forall l0, l = Some l0 -> l0 = p.
Proof. exact add_version_parent_is_latest. Qed.

(** ... reports success only after that swap succeeded, and after a failed swap
    goes on to delete its own object. *)
Theorem C09_ok_only_after_swap : forall rank threshold c r c0 u,
  cl_resume rank threshold c r = CDone (CAddOk c0 u) -> c = A5 c0.
Proof. exact add_version_ok_only_after_swap. Qed.

Theorem C09_swap_outcomes : forall rank threshold p c0 pl l,
  cl_resume rank threshold (A2 p c0 pl l) (PBool true) = A5 c0
  /\ cl_resume rank threshold (A2 p c0 pl l) (PBool false) = A3 p c0.
Proof. split; reflexivity. Qed.

(** Version objects appear only by a put and disappear only by a delete. *)
Theorem C09_objects_change_only_by_put_and_delete : forall rank pagesz now st q,
  o_vers (ostore_step rank pagesz now st q).2 = o_vers st
  \/ (exists p c pl, q = QPutVer p c pl /\ o_vers (ostore_step rank pagesz now st q).2 = <[(p, c) := (pl, now)]> (o_vers st))
  \/ (exists p c, q = QDelVer p c /\ o_vers (ostore_step rank pagesz now st q).2 = delete (p, c) (o_vers st)).
Proof. exact vers_change. Qed.

(** The invariant holds in every state reachable by any schedule of any number
    of clients, with drops and lost replies anywhere. *)
Theorem C09_invariant_every_schedule : forall rank pagesz threshold (evs : list cev),
  CInv (fold_left (cstep rank pagesz threshold) evs csys0).
Proof. exact CInv_run. Qed.

(** Two versions on the chain stored under the same parent are the same
    version: at most one child per parent is ever accepted. *)
Theorem C09_one_child_per_parent : forall rank pagesz threshold evs p c1 c2,
  let s := fold_left (cstep rank pagesz threshold) evs csys0 in
  c1 ∈ c_hist s -> c2 ∈ c_hist s ->
  is_Some (o_vers (c_store s) !! (p, c1)) -> is_Some (o_vers (c_store s) !! (p, c2)) -> c1 = c2.
Proof. exact one_child_per_parent. Qed.

(** A version whose add-version call returned success is on the chain in every
    later state. *)
Theorem C09_accepted_stays_on_chain : forall rank pagesz threshold evs more pc c u,
  (pc, CAddOk c u) ∈ c_results (fold_left (cstep rank pagesz threshold) evs csys0) ->
  c ∈ c_hist (fold_left (cstep rank pagesz threshold) (evs ++ more) csys0).
Proof. exact accepted_stays_on_chain. Qed.

(** get-child-version returns only the chain child of the requested parent,
    with the bytes submitted under that id; a version that lost the race is
    never served. *)
Theorem C09_served_is_chain_child : forall rank pagesz threshold evs pc c pl,
  let s := fold_left (cstep rank pagesz threshold) evs csys0 in
  (pc, CVersion c pl) ∈ c_results s ->
  exists p k, pc = G3 p c /\ c_sub s !! c = Some (p, pl)
              /\ c_hist s !! k = Some c
              /\ (forall k', k = S k' -> c_hist s !! k' = Some p) /\ (k = 0%nat -> p = 0%N).
Proof. exact served_is_chain_child. Qed.

Theorem C09_expected_was_latest : forall rank pagesz threshold evs pc l,
  (pc, CExpected l) ∈ c_results (fold_left (cstep rank pagesz threshold) evs csys0) ->
  l = 0%N \/ l ∈ c_hist (fold_left (cstep rank pagesz threshold) evs csys0).
Proof. exact expected_was_latest. Qed.

(** history and results only grow *)
Theorem C09_history_only_grows : forall rank pagesz threshold evs more,
  c_hist (fold_left (cstep rank pagesz threshold) evs csys0)
    `prefix_of` c_hist (fold_left (cstep rank pagesz threshold) (evs ++ more) csys0)
  /\ (forall x, x ∈ c_results (fold_left (cstep rank pagesz threshold) evs csys0) ->
                x ∈ c_results (fold_left (cstep rank pagesz threshold) (evs ++ more) csys0)).
Proof. exact run_grows. Qed.


Print Assumptions C09_latest_changes_only_by_cas.
Print Assumptions C09_one_swap_per_parent.
Print Assumptions C09_swap_shape.
Print Assumptions C09_parent_is_latest.
Print Assumptions C09_ok_only_after_swap.
Print Assumptions C09_swap_outcomes.
Print Assumptions C09_objects_change_only_by_put_and_delete.
Print Assumptions C09_invariant_every_schedule.
Print Assumptions C09_one_child_per_parent.
Print Assumptions C09_accepted_stays_on_chain.
Print Assumptions C09_served_is_chain_child.
Print Assumptions C09_expected_was_latest.
Print Assumptions C09_history_only_grows.
