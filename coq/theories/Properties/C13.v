(** C13 — Data leaving the host is sealed, version-bound and tamper-evident.
    An independent Gallina implementation of the documented scheme
    (Model/Crypto: SHA-256, HMAC, PBKDF2, ChaCha20, Poly1305, the RFC 8439
    AEAD, the envelope), validated against the RFC test vectors
    (Proofs/Crypto/Vectors.v), and tied to the code byte for byte by the
    correspondence check.  Secrecy and unforgeability are computational claims
    and are not theorems here (DESIGN.md section 9). *)
From Coq Require Import List NArith.
From TC Require Import Model.Crypto.Envelope Proofs.Crypto.EnvelopeP.
Import ListNotations.

(** The sealed form: format byte 1, the 12-byte nonce, ciphertext of the
    payload's length, a 16-byte tag. *)
Theorem C13_envelope_layout : forall key nonce vid payload,
  length nonce = 12 ->
  exists c t, seal key nonce vid payload = 1%N :: nonce ++ c ++ t
              /\ length c = length payload /\ length t = 16.
Proof. exact envelope_layout. Qed.

(** The authenticated data: application id 1 followed by the version id. *)
Theorem C13_aad_layout : forall vid, make_aad vid = 1%N :: vid.
Proof. exact aad_layout. Qed.

(** Opening with the same key and version id yields the original bytes, for
    all keys, nonces, ids and payloads. *)
Theorem C13_unseal_seal : forall key nonce vid payload,
  length nonce = 12 -> unseal key vid (seal key nonce vid payload) = Some payload.
Proof. exact unseal_seal. Qed.

(** Too short, or not format 1: rejected. *)
Theorem C13_unseal_rejects_short : forall key vid s, (length s <= 13)%nat -> unseal key vid s = None.
Proof. exact unseal_rejects_short. Qed.

Theorem C13_unseal_rejects_format : forall key vid b s, b <> 1%N -> unseal key vid (b :: s) = None.
Proof. exact unseal_rejects_format. Qed.

(** Acceptance is exactly a tag match for THIS version id's authenticated data,
    this ciphertext and this key: a value is opened iff it is what [seal]
    produces for the returned payload under the same key and version id.  A
    re-labelled, modified or foreign value is therefore accepted only on a
    Poly1305 tag collision. *)
Theorem C13_unseal_sound : forall key vid s p,
  unseal key vid s = Some p <-> exists nonce, length nonce = 12 /\ s = seal key nonce vid p.
Proof. exact unseal_Some_iff. Qed.

Print Assumptions C13_envelope_layout.
Print Assumptions C13_aad_layout.
Print Assumptions C13_unseal_seal.
Print Assumptions C13_unseal_rejects_short.
Print Assumptions C13_unseal_rejects_format.
Print Assumptions C13_unseal_sound.
