(** C05 — Local commits are atomic and follow the documented operation model. *)
From TC Require Import Model.TaskDb Proofs.ApplyP Proofs.CommitP.

(** Batch application through the write cache equals one-at-a-time application
    of the documented rules ([apply]: create makes an empty task unless it
    exists, update edits one property of an existing task, delete removes it,
    operations on missing tasks change nothing), for every stored state, every
    batch -- valid or not -- and every order of the final flush; base version,
    operation log and working set are untouched by it. *)
Theorem C05_apply_operations_spec : forall (keys : list N) (s : store) (ops : list op),
  (forall u, (fold_left apply_cached ops (∅, s)).1 !! u <> None -> u ∈ keys) ->
  st_tasks (apply_operations_with keys s ops) = applyl (st_tasks s) (sync_form ops)
  /\ same_meta s (apply_operations_with keys s ops).
Proof. exact apply_operations_spec. Qed.

(** A commit: tasks as above; the batch is appended, in order and unsynced, to
    the operation log; the base version is unchanged; the working set is only
    extended at its end, by the tasks whose status was turned pending/recurring
    by the batch and that were not in it, each once. *)
Theorem C05_commit_spec : forall (status : N) (is_pr : N -> bool) (s : store) (ops : list op),
  let s' := commit_operations status is_pr s ops in
  st_tasks s' = applyl (st_tasks s) (sync_form ops)
  /\ unsynced s' = unsynced s ++ ops
  /\ st_ops s' = st_ops s ++ map (pair false) ops
  /\ st_base s' = st_base s
  /\ exists added, st_ws s' = st_ws s ++ map Some added
       /\ NoDup added
       /\ (forall u, u ∈ added -> u ∈ omap (adds_to_ws status is_pr) ops /\ Some u ∉ st_ws s)
       /\ (forall u, u ∈ omap (adds_to_ws status is_pr) ops -> Some u ∈ st_ws s').
Proof. exact commit_spec. Qed.

(** At all times the tasks equal the last synchronised state with the
    unsynchronised operations applied: the invariant is kept by every commit. *)
Theorem C05_tasks_are_base_plus_unsynced :
  forall (status : N) (is_pr : N -> bool) (s : store) (ops : list op) (base_state : db),
  st_tasks s = applyl base_state (sync_form (unsynced s)) ->
  let s' := commit_operations status is_pr s ops in
  st_tasks s' = applyl base_state (sync_form (unsynced s')).
Proof. exact commit_keeps_replay. Qed.

Print Assumptions C05_apply_operations_spec.
Print Assumptions C05_commit_spec.
Print Assumptions C05_tasks_are_base_plus_unsynced.
