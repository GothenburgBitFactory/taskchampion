(** C02 — Convergence survives racing syncs and rejected versions. *)
From TC Require Import Model.Sync Proofs.SyncP Proofs.SyncP2.

(** Histories [list event] contain the individual server requests of all
    replicas' syncs in any order ([EStep i]), so the invariant and convergence
    hold for every interleaving at request granularity. *)
Theorem C02_invariant_every_schedule :
  forall (sz : sop -> N) (limit : N) (n : nat) (h : list event),
  wf_history sz limit (sys0 n) h = true -> Inv (run sz limit (sys0 n) h).
Proof. exact Inv_reachable. Qed.

Theorem C02_converge_concurrent :
  forall (sz : sop -> N) (limit : N) (n : nat) (h : list event) i nd,
  wf_history sz limit (sys0 n) h = true ->
  nodes (run sz limit (sys0 n) h) !! i = Some nd ->
  r_pend (n_rep nd) = [] ->
  r_base (n_rep nd) = length (chain (srv (run sz limit (sys0 n) h))) ->
  r_tasks (n_rep nd) = applyl ∅ (concat (chain (srv (run sz limit (sys0 n) h)))).
Proof. exact converge. Qed.

(** Against the abstract server every sync that finishes, in any schedule,
    finishes successfully: never out-of-sync, never a protocol error. *)
Theorem C02_no_out_of_sync :
  forall (sz : sop -> N) (limit : N) (n : nat) (h : list event) i r,
  wf_history sz limit (sys0 n) h = true ->
  In (i, r) (results (run sz limit (sys0 n) h)) -> r = SyncOk.
Proof. exact no_out_of_sync. Qed.

(** What a (re)try pushes is a prefix of the list as rebased so far ... *)
Theorem C02_push_is_rebased : forall (sz : sop -> N) (limit : N) (x : sst) b ops,
  sync_next sz limit x = inl (RAddVersion b ops) ->
  b = x_base x /\ ops `prefix_of` x_local x.
Proof. exact push_is_prefix_of_rebased. Qed.

(** ... and that list only ever loses operations during a sync: one that lost
    a conflict (was dropped by a rebase) is never sent by a later retry. *)
Theorem C02_retry_never_resurrects : forall (sz : sop -> N) (limit : N) (x : sst) (p : resp),
  sublist (x_local (sync_resume sz limit x p)) (x_local x).
Proof. exact sync_resume_local_sublist. Qed.

Theorem C02_rebase_only_drops : forall (v l : list sop),
  sublist (rebase transform v l).2 l.
Proof. exact RebaseP.rebase_sublist. Qed.

Print Assumptions C02_invariant_every_schedule.
Print Assumptions C02_converge_concurrent.
Print Assumptions C02_no_out_of_sync.
Print Assumptions C02_push_is_rebased.
Print Assumptions C02_retry_never_resurrects.
Print Assumptions C02_rebase_only_drops.
