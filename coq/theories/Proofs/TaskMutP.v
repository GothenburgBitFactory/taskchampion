(** Task mutators, their recorded operations and the task model agree, and
    committing the recorded operations twice changes nothing (C19). *)
From TC Require Import Model.TaskMut.
From Coq Require Import Strings.String.

(* property names stay folded as [s2l "..."]: unfolded they are lists of character codes *)
Local Arguments s2l : simpl never.

Lemma upd_map_partial_alter (m : gmap (list N) (list N)) p v : upd_map m p v = partial_alter (fun _ => v) p m.
Proof. destruct v; reflexivity. Qed.

Lemma lookup_upd_map (m : gmap (list N) (list N)) p v k :
  upd_map m p v !! k = if decide (k = p) then v else m !! k.
Proof.
  rewrite upd_map_partial_alter. destruct (decide (k = p)) as [->|Hne].
  - apply lookup_partial_alter.
  - apply lookup_partial_alter_ne. congruence.
Qed.

(** the held task is the stored task [m0] with the recorded operations applied,
    and every recorded old value is the one that was there *)
Definition good (m0 : gmap (list N) (list N)) (s : tstate) : Prop :=
  replay_log m0 (ts_log s) = ts_map s /\ true_old_values m0 (ts_log s).

Lemma replay_log_app m0 l1 l2 : replay_log m0 (l1 ++ l2) = replay_log (replay_log m0 l1) l2.
Proof. apply fold_left_app. Qed.

Lemma true_old_values_app m0 l1 l2 :
  true_old_values m0 (l1 ++ l2) <-> true_old_values m0 l1 /\ true_old_values (replay_log m0 l1) l2.
Proof.
  revert m0; induction l1 as [|[[p old] v] l1 IH]; intros m0; cbn [app true_old_values].
  - cbn. tauto.
  - rewrite IH. cbn. tauto.
Qed.

Lemma td_update_good m0 s p v : good m0 s -> good m0 (td_update s p v).
Proof.
  intros [H1 H2]. unfold good, td_update. cbn [ts_log ts_map]. split.
  - rewrite replay_log_app, H1. reflexivity.
  - apply true_old_values_app. split; [exact H2|]. rewrite H1. cbn [true_old_values]. auto.
Qed.

Lemma set_um_good m0 s b : good m0 s -> good m0 {| ts_map := ts_map s; ts_um := b; ts_log := ts_log s |}.
Proof. intros H. exact H. Qed.

Lemma set_value_good nowstr m0 s p v : good m0 s -> good m0 (set_value nowstr s p v).
Proof.
  intros H. unfold set_value. apply td_update_good, set_um_good.
  destruct (_ && _); [apply td_update_good|]; exact H.
Qed.

Lemma set_status_good nowstr m0 s st : good m0 s -> good m0 (set_status nowstr s st).
Proof.
  intros H. unfold set_status. apply set_value_good.
  repeat case_match; auto using set_value_good.
Qed.

Theorem mutator_good nowstr m0 s m s' :
  good m0 s -> run_mutator nowstr s m = Some s' -> good m0 s'.
Proof.
  intros H. destruct m; unfold run_mutator; repeat case_match; try discriminate; intros <-%(inj Some);
    auto using set_status_good, set_value_good, td_update_good.
Qed.

Theorem mutators_good nowstr m0 l : forall s, good m0 s -> good m0 (run_mutators nowstr s l).
Proof.
  induction l as [|m l IH]; intros s H; cbn [run_mutators fold_left]; [exact H|].
  apply IH. destruct (run_mutator nowstr s m) eqn:E; cbn; [eapply mutator_good; eassumption|exact H].
Qed.

Corollary held_equals_stored nowstr m0 um l :
  let s := run_mutators nowstr {| ts_map := m0; ts_um := um; ts_log := [] |} l in
  replay_log m0 (ts_log s) = ts_map s /\ true_old_values m0 (ts_log s).
Proof. apply mutators_good. split; cbn; auto. Qed.

(** the modification time is refreshed once per editing session ([ts_um] marks
    the session), and never when it is set explicitly *)
Lemma set_value_log_fresh nowstr s p v :
  ts_um s = false -> p <> s2l "modified" ->
  ts_log (set_value nowstr s p v) =
  ts_log s ++ [(s2l "modified", ts_map s !! s2l "modified", Some nowstr);
               (p, upd_map (ts_map s) (s2l "modified") (Some nowstr) !! p, v)].
Proof.
  intros Hum Hp. unfold set_value. rewrite Hum, bool_decide_eq_false_2 by exact Hp. cbn.
  rewrite <- app_assoc. reflexivity.
Qed.

Lemma set_value_log_again nowstr s p v :
  ts_um s = true -> ts_log (set_value nowstr s p v) = ts_log s ++ [(p, ts_map s !! p, v)].
Proof. intros Hum. unfold set_value. rewrite Hum, andb_false_r. reflexivity. Qed.

Lemma set_value_log_explicit nowstr s v :
  ts_log (set_value nowstr s (s2l "modified") v) = ts_log s ++ [(s2l "modified", ts_map s !! s2l "modified", v)].
Proof. unfold set_value. rewrite bool_decide_eq_true_2 by reflexivity. reflexivity. Qed.

Lemma lookup_set_value nowstr s p v q :
  ts_map (set_value nowstr s p v) !! q =
  if decide (q = p) then v
  else if decide (q = s2l "modified") then (if ts_um s then ts_map s !! q else Some nowstr)
  else ts_map s !! q.
Proof.
  unfold set_value. cbn [td_update ts_map]. rewrite lookup_upd_map.
  destruct (decide (q = p)) as [|Hp]; [reflexivity|]. destruct (decide (q = s2l "modified")) as [->|Hm].
  - rewrite bool_decide_eq_false_2 by congruence. destruct (ts_um s); [reflexivity|apply lookup_insert].
  - destruct (_ && _); [apply lookup_insert_ne; congruence|reflexivity].
Qed.

Lemma set_value_reads_back nowstr s p v : ts_map (set_value nowstr s p v) !! p = v.
Proof. rewrite lookup_set_value. apply decide_True. reflexivity. Qed.

Lemma set_value_other nowstr s p v q :
  q <> p -> q <> s2l "modified" -> ts_map (set_value nowstr s p v) !! q = ts_map s !! q.
Proof. intros H1 H2. rewrite lookup_set_value, !decide_False by assumption. reflexivity. Qed.

Lemma set_status_status nowstr s st :
  ts_map (set_status nowstr s st) !! s2l "status" = Some (status_str st).
Proof. apply set_value_reads_back. Qed.

Lemma lookup_set_status_end nowstr s st :
  ts_map (set_status nowstr s st) !! s2l "end" =
  match st with
  | StPending | StRecurring => None
  | StCompleted | StDeleted => Some (default nowstr (ts_map s !! s2l "end"))
  | StUnknown _ => ts_map s !! s2l "end"
  end.
Proof.
  unfold set_status, has. rewrite set_value_other by discriminate.
  destruct st; try reflexivity; destruct (ts_map s !! s2l "end") as [e|] eqn:E; cbn -[set_value];
    rewrite ?set_value_reads_back; auto.
Qed.

Lemma end_set_on_close nowstr s st :
  (st = StCompleted \/ st = StDeleted) -> ts_map s !! s2l "end" = None ->
  ts_map (set_status nowstr s st) !! s2l "end" = Some nowstr.
Proof. intros [-> | ->] He; rewrite lookup_set_status_end, He; reflexivity. Qed.

Lemma end_cleared_on_reopen nowstr s st :
  (st = StPending \/ st = StRecurring) ->
  ts_map (set_status nowstr s st) !! s2l "end" = None.
Proof. intros [-> | ->]; apply lookup_set_status_end. Qed.

Lemma reserved_uda_refused nowstr s k v :
  is_known_key k = true -> run_mutator nowstr s (MSetUda k v) = None /\ run_mutator nowstr s (MRemoveUda k) = None.
Proof. intros H. cbn. rewrite H. auto. Qed.

Lemma synthetic_tag_refused nowstr s t x :
  parse_tag t = Some (TSynthetic x) ->
  run_mutator nowstr s (MAddTag t) = None /\ run_mutator nowstr s (MRemoveTag t) = None.
Proof. intros H. cbn. rewrite H. auto. Qed.

(** at each key a replay leaves the last value the log writes there ([w]), or
    what the map had if the log does not write the key *)
Lemma replay_log_lookup l k : exists w, forall m, replay_log m l !! k = default (m !! k) w.
Proof.
  induction l as [|[[p o] v] l [w IH]] using rev_ind; [exists None; reflexivity|].
  exists (if decide (k = p) then Some v else w). intros m.
  rewrite replay_log_app. cbn [replay_log fold_left fst snd]. rewrite lookup_upd_map.
  destruct (decide (k = p)); [reflexivity|apply IH].
Qed.

Theorem replay_idempotent l : forall m, replay_log (replay_log m l) l = replay_log m l.
Proof.
  intros m. apply map_eq. intros k. destruct (replay_log_lookup l k) as [w H].
  rewrite !H. destruct w; reflexivity.
Qed.

Theorem repeated_application (nowstr : list N) (m0 : gmap (list N) (list N)) (um : bool) (l : list mutator) :
  let s := run_mutators nowstr {| ts_map := m0; ts_um := um; ts_log := [] |} l in
  replay_log (replay_log m0 (ts_log s)) (ts_log s) = ts_map s.
Proof.
  intros s. rewrite replay_idempotent. exact (proj1 (held_equals_stored nowstr m0 um l)).
Qed.
