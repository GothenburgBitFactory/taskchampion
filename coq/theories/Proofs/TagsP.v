(** Tags and dependencies written through the mutators are read back by the
    getters, and no other tag changes; removed dependencies, and annotations
    added or removed, are followed as far as the stored key (C19). *)
From TC Require Import Model.TaskMut Proofs.TaskMutP.
From Coq Require Import Strings.String.

Lemma strip_prefix_Some p : forall k x, strip_prefix p k = Some x <-> k = p ++ x.
Proof.
  induction p as [|c p IH]; intros k x; cbn; [split; congruence|].
  destruct k as [|d k]; [split; discriminate|]. destruct (N.eqb_spec c d) as [->|Hne].
  - rewrite IH. split; congruence.
  - split; [discriminate|congruence].
Qed.

(** membership in what a reader collects from the keys with a given prefix
    ([user_tags], [dependencies]) *)
Lemma elem_of_omap_prefixed {B} (pre : list N) (f : list N -> list N -> option B) (m : tmap) y :
  y ∈ omap (fun '(k, v) => match strip_prefix pre k with Some x => f x v | None => None end) (map_to_list m)
  <-> exists x v, m !! (pre ++ x) = Some v /\ f x v = Some y.
Proof.
  rewrite elem_of_list_omap. split.
  - intros ([k v] & Hin%elem_of_map_to_list & H).
    destruct (strip_prefix pre k) as [x|] eqn:E; [|discriminate]. apply strip_prefix_Some in E as ->. eauto.
  - intros (x & v & Hm%elem_of_map_to_list & Hf). exists (pre ++ x, v). split; [exact Hm|].
    rewrite (proj2 (strip_prefix_Some pre _ x) eq_refl). exact Hf.
Qed.

Lemma parse_tag_user v x : parse_tag v = Some (TUser x) -> x = v.
Proof. unfold parse_tag. repeat case_match; congruence. Qed.

Lemma user_tags_elem (m : tmap) tg :
  tg ∈ user_tags m <-> exists x v, m !! (s2l "tag_"%string ++ x) = Some v /\ parse_tag x = Some tg.
Proof. exact (elem_of_omap_prefixed _ (fun x _ => parse_tag x) m tg). Qed.

Section Mut.
Variable nowstr : list N.

Lemma app_inj_prefix (p x y : list N) : p ++ x = p ++ y -> x = y.
Proof. apply app_inv_head. Qed.

Lemma run_tag_mutator s t s' (add : bool) :
  run_mutator nowstr s (if add then MAddTag t else MRemoveTag t) = Some s' ->
  parse_tag t = Some (TUser t) /\
  s' = set_value nowstr s (s2l "tag_"%string ++ t) (if add then Some [] else None).
Proof.
  destruct add; unfold run_mutator; destruct (parse_tag t) as [[x|y]|] eqn:E; try discriminate;
    intros <-%(inj Some); rewrite (parse_tag_user t x E); auto.
Qed.

Lemma user_tags_set_value s t v tg :
  parse_tag t = Some (TUser t) ->
  tg ∈ user_tags (ts_map (set_value nowstr s (s2l "tag_"%string ++ t) v)) <->
  if decide (tg = TUser t) then is_Some v else tg ∈ user_tags (ts_map s).
Proof.
  intros E. destruct (decide (tg = TUser t)) as [->|Hne]; rewrite !user_tags_elem.
  - split.
    + intros (x & w & Hm & ->%parse_tag_user). rewrite set_value_reads_back in Hm. rewrite Hm. eauto.
    + intros [w ->]. exists t, w. split; [apply set_value_reads_back|exact E].
  - (* the key of any other tag is read the same before and after *)
    assert (forall x, parse_tag x = Some tg ->
      ts_map (set_value nowstr s (s2l "tag_"%string ++ t) v) !! (s2l "tag_"%string ++ x)
      = ts_map s !! (s2l "tag_"%string ++ x)) as Hkey.
    { intros x Hp. apply set_value_other; [|discriminate]. intros ->%app_inv_head. congruence. }
    split; intros (x & w & Hm & Hp); exists x, w; (split; [|exact Hp]).
    + rewrite <- (Hkey x Hp). exact Hm.
    + rewrite (Hkey x Hp). exact Hm.
Qed.

Theorem add_tag_has s t s' :
  run_mutator nowstr s (MAddTag t) = Some s' -> TUser t ∈ user_tags (ts_map s').
Proof.
  intros [E ->]%(run_tag_mutator s t s' true). rewrite user_tags_set_value, decide_True by auto. eauto.
Qed.

Theorem remove_tag_gone s t s' :
  run_mutator nowstr s (MRemoveTag t) = Some s' -> TUser t ∉ user_tags (ts_map s').
Proof.
  intros [E ->]%(run_tag_mutator s t s' false). rewrite user_tags_set_value, decide_True by auto. apply is_Some_None.
Qed.

Theorem other_tags_untouched s t s' tg (add : bool) :
  run_mutator nowstr s (if add then MAddTag t else MRemoveTag t) = Some s' ->
  tg <> TUser t ->
  (tg ∈ user_tags (ts_map s') <-> tg ∈ user_tags (ts_map s)).
Proof.
  intros [E ->]%run_tag_mutator Hne. rewrite user_tags_set_value, decide_False by auto. reflexivity.
Qed.

(** dependencies: an added one is listed (for a text that denotes a task); a
    removed one loses its key -- it stays listed if another stored text denotes
    the same task *)
Variable parse_uuid : list N -> option N.

Lemma dependencies_elem (m : tmap) d :
  d ∈ dependencies parse_uuid m <-> exists x v, m !! (s2l "dep_"%string ++ x) = Some v /\ parse_uuid x = Some d.
Proof. exact (elem_of_omap_prefixed _ (fun x _ => parse_uuid x) m d). Qed.

Theorem add_dependency_has s u d s' :
  run_mutator nowstr s (MAddDep u) = Some s' -> parse_uuid u = Some d ->
  d ∈ dependencies parse_uuid (ts_map s').
Proof.
  intros <-%(inj Some) Hu. apply dependencies_elem. exists u, []. split; [apply set_value_reads_back|exact Hu].
Qed.

Theorem remove_dependency_gone s u s' :
  run_mutator nowstr s (MRemoveDep u) = Some s' ->
  ts_map s' !! (s2l "dep_"%string ++ u) = None.
Proof. intros <-%(inj Some). apply set_value_reads_back. Qed.

Theorem add_annotation_stored s ts d s' :
  run_mutator nowstr s (MAddAnnotation ts d) = Some s' ->
  ts_map s' !! (s2l "annotation_"%string ++ ts) = Some d.
Proof. intros <-%(inj Some). apply set_value_reads_back. Qed.

Theorem remove_annotation_gone s ts s' :
  run_mutator nowstr s (MRemoveAnnotation ts) = Some s' ->
  ts_map s' !! (s2l "annotation_"%string ++ ts) = None.
Proof. intros <-%(inj Some). apply set_value_reads_back. Qed.
End Mut.
