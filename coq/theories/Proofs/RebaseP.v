(** Rebasing local operations over a version: the equations of [rebase], the
    diamond for whole lists, and that the local list only loses operations. *)
From TC Require Import Model.Rebase Proofs.TransformP.

Notation rebase_one' := (rebase_one transform).
Notation rebase' := (rebase transform).

Lemma applyl_app s l1 l2 : applyl s (l1 ++ l2) = applyl (applyl s l1) l2.
Proof. apply fold_left_app. Qed.

Lemma valid_seqb_app s l1 l2 :
  valid_seqb s (l1 ++ l2) = valid_seqb s l1 && valid_seqb (applyl s l1) l2.
Proof.
  revert s; induction l1 as [|o l1 IH]; intros s; cbn [valid_seqb app applyl fold_left].
  - reflexivity.
  - rewrite IH, andb_assoc. reflexivity.
Qed.

Definition consopt (o : option sop) (l : list sop) : list sop :=
  match o with Some x => x :: l | None => l end.

Lemma applyl_consopt s o l : applyl s (consopt o l) = applyl (applyo s o) l.
Proof. destruct o; reflexivity. Qed.

Lemma valid_seqb_consopt s o l :
  valid_seqb s (consopt o l) = valido s o && valid_seqb (applyo s o) l.
Proof. destruct o; reflexivity. Qed.

Section Equations.
Variable tf : sop -> sop -> option sop * option sop.

Lemma rebase_one_None l : rebase_one tf None l = (None, l).
Proof. destruct l; reflexivity. Qed.

Lemma rebase_one_cons o lo l :
  rebase_one tf (Some o) (lo :: l) =
  let '(so', lo') := tf o lo in
  let '(r, l') := rebase_one tf so' l in (r, consopt lo' l').
Proof. reflexivity. Qed.

Lemma rebase_cons so v l :
  rebase tf (so :: v) l =
  let '(r, l1) := rebase_one tf (Some so) l in
  let '(v', l2) := rebase tf v l1 in (consopt r v', l2).
Proof. reflexivity. Qed.

Lemma rebase_consopt so v l :
  rebase tf (consopt so v) l =
  let '(r, l1) := rebase_one tf so l in
  let '(v', l2) := rebase tf v l1 in (consopt r v', l2).
Proof.
  destruct so; [apply rebase_cons|]. rewrite rebase_one_None. cbn. destruct (rebase tf v l). reflexivity.
Qed.

Lemma rebase_nil_r v : rebase tf v [] = (v, []).
Proof. induction v as [|so v IH]; cbn [rebase rebase_one]; [reflexivity|]. rewrite IH. reflexivity. Qed.
End Equations.

Lemma rebase_one_diamond l : forall s so,
  valido s so = true -> valid_seqb s l = true ->
  let '(r, l') := rebase_one' so l in
  applyo (applyl s l) r = applyl (applyo s so) l'
  /\ valid_seqb (applyo s so) l' = true
  /\ valido (applyl s l) r = true.
Proof.
  induction l as [|lo l IH]; intros s [o|] Hso Hl; try (cbn; auto; fail).
  rewrite rebase_one_cons.
  cbn [valid_seqb] in Hl. apply andb_true_iff in Hl as [Hlo Hl].
  pose proof (tp1 s o lo Hso Hlo) as T.
  destruct (transform o lo) as [so' lo']. destruct T as (T1 & T2 & T3).
  specialize (IH (apply s lo) so' T3 Hl).
  destruct (rebase_one' so' l) as [r l']. destruct IH as (I1 & I2 & I3).
  cbn [applyo]. rewrite applyl_consopt, valid_seqb_consopt, T1, T2. auto.
Qed.

Lemma rebase_diamond v : forall l s,
  valid_seqb s v = true -> valid_seqb s l = true ->
  let '(v', l') := rebase' v l in
  applyl (applyl s l) v' = applyl (applyl s v) l'
  /\ valid_seqb (applyl s v) l' = true
  /\ valid_seqb (applyl s l) v' = true.
Proof.
  induction v as [|so v IH]; intros l s Hv Hl; [cbn; auto|].
  rewrite rebase_cons.
  cbn [valid_seqb] in Hv. apply andb_true_iff in Hv as [Hso Hv].
  pose proof (rebase_one_diamond l s (Some so) Hso Hl) as R.
  destruct (rebase_one' (Some so) l) as [r l1]. destruct R as (R1 & R2 & R3).
  specialize (IH l1 (apply s so) Hv R2).
  destruct (rebase' v l1) as [v' l2]. destruct IH as (I1 & I2 & I3).
  rewrite applyl_consopt, valid_seqb_consopt, R1, R3. auto.
Qed.

Lemma rebase_one_sublist l : forall so, sublist (rebase_one' so l).2 l.
Proof.
  induction l as [|lo l IH]; intros [o|]; try reflexivity.
  rewrite rebase_one_cons, transform_spec.
  specialize (IH (if absorbed o lo then None else Some o)). destruct (rebase_one' _ l) as [r l'].
  destruct (absorbed lo o); [apply sublist_cons|apply sublist_skip]; exact IH.
Qed.

Lemma rebase_sublist v : forall l, sublist (rebase' v l).2 l.
Proof.
  induction v as [|so v IH]; intros l; [reflexivity|]. rewrite rebase_cons.
  pose proof (rebase_one_sublist l (Some so)) as H1. destruct (rebase_one' (Some so) l) as [r l1].
  specialize (IH l1). destruct (rebase' v l1). etransitivity; eassumption.
Qed.
