(** Cleanup of the object store interleaved with everything else (C10): the
    inductive invariant over ALL schedules of any number of clients running
    add-version, get-child-version, add-/get-snapshot AND cleanup, one
    object-store request (or list page) at a time, with drops and lost replies
    anywhere.

    Ghosts: the successive values of [latest] ([c_hist]), the next fresh id,
    what each id submitted ([c_sub]), [c_cut] -- the number of leading chain
    versions some cleanup has so far planned to delete -- and [c_best] -- the
    newest chain version for whose snapshot a cleanup has made its plan.

    The invariant says in particular: every chain version from position
    [c_cut] onward still has its object; if [c_cut > 0] the snapshot of
    [c_best] is in the store and [c_best] sits at position >= [c_cut - 1];
    what a cleanup deletes as a race loser can never join the chain, and an
    add-version whose uploaded object a cleanup removed loses its swap.

    The system is C09's (Proofs/CloudInvP.v) plus the cleanup machine and its
    ghosts, minus the ghost of returned results.  The chain part of the
    invariant is shared: [CloudInvP.ChainInv] at the cut ([Core_split]).
    [step_client] says directly what the other clients keep, not through the
    one id whose owner moved as C09's does: a cleanup deletes objects that
    other clients own. *)
From TC Require Import Model.Cloud Proofs.CloudP.
From TC Require Proofs.CloudInvP.

Record csys := {
  c_store : ostore;
  c_clients : gmap nat cpc;
  c_hist : list N;
  c_next : N;
  c_sub : gmap N (N * N);                (* id -> (parent, payload) submitted *)
  c_cut : nat;
  c_best : option N
}.

Inductive cev :=
| VStartAdd (i : nat) (p pl : N)
| VStartGet (i : nat) (p : N)
| VStartAddSnap (i : nat) (v pl : N)
| VStartGetSnap (i : nat)
| VStartCleanup (i : nat)
| VStep (i : nat) (now : N)
| VDrop (i : nat)
| VFailAfter (i : nat) (now : N).

Fixpoint pos (h : list N) (c : N) : option nat :=
  match h with
  | [] => None
  | x :: h' => if N.eqb x c then Some 0%nat else S <$> pos h' c
  end.

Section Chain.
Variable rank : N -> N.
Variable pagesz : nat.
Variable threshold : N.

Definition hist_after (st st' : ostore) (h : list N) : list N :=
  if bool_decide (o_latest st' = o_latest st) then h
  else match o_latest st' with Some c => h ++ [c] | None => h end.

Definition with_clients (s : csys) (m : gmap nat cpc) : csys :=
  {| c_store := c_store s; c_clients := m; c_hist := c_hist s; c_next := c_next s;
     c_sub := c_sub s; c_cut := c_cut s; c_best := c_best s |}.

(** the snapshot a cleanup bases its plan on, when this step completes its
    listing of snapshots: the computation of [cl_resume] at [K3], last page *)
Definition plan_snapshot (c : cpc) (r : sresp) : option N :=
  match c, r with
  | K3 l vers acc _, PSnapPage pg false =>
      let chain := match l with Some l0 => walk_back (S (length vers)) vers l0 | None => [] end in
      latest_snapshot l chain (acc ++ pg)
  | _, _ => None
  end.

(** A plan based on the snapshot at position [ks] will delete the versions up to
    and including [ks] and the snapshots before it: the cut moves up to [S ks],
    never back, and [best] moves to that snapshot only if it is later than
    the present one (cleanups may complete their plans in any order). *)
Definition ghost_after (h : list N) (cut : nat) (best : option N) (c : cpc) (r : sresp) : nat * option N :=
  match plan_snapshot c r with
  | Some s =>
      match pos h s with
      | Some ks =>
          (Nat.max cut (S ks),
           match best with
           | Some b => match pos h b with
                       | Some kb => if (kb <? ks)%nat then Some s else best
                       | None => Some s
                       end
           | None => Some s
           end)
      | None => (cut, best)
      end
  | None => (cut, best)
  end.

Definition cstep (s : csys) (e : cev) : csys :=
  let start i c :=
    match c_clients s !! i with
    | None => with_clients s (<[i := c]> (c_clients s))
    | Some _ => s
    end in
  match e with
  | VStartAdd i p pl =>
      match c_clients s !! i with
      | None =>
          if bool_decide (p = 0%N \/ p ∈ c_hist s) then
            {| c_store := c_store s; c_clients := <[i := A0 p (c_next s) pl]> (c_clients s);
               c_hist := c_hist s; c_next := (c_next s + 1)%N;
               c_sub := <[c_next s := (p, pl)]> (c_sub s); c_cut := c_cut s; c_best := c_best s |}
          else s
      | Some _ => s
      end
  | VStartGet i p => start i (G0 p [] None)
  | VStartAddSnap i v pl => start i (S0 v pl)
  | VStartGetSnap i => start i T0
  | VStartCleanup i => start i K0
  | VStep i now =>
      match c_clients s !! i with
      | Some c =>
          match cl_next c with
          | inl q =>
              let '(r, st') := ostore_step rank pagesz now (c_store s) q in
              let c' := cl_resume rank threshold c r in
              let g := ghost_after (c_hist s) (c_cut s) (c_best s) c r in
              {| c_store := st';
                 c_clients := match c' with CDone _ => delete i (c_clients s) | _ => <[i := c']> (c_clients s) end;
                 c_hist := hist_after (c_store s) st' (c_hist s); c_next := c_next s; c_sub := c_sub s;
                 c_cut := g.1; c_best := g.2 |}
          | inr _ => s
          end
      | None => s
      end
  | VDrop i => with_clients s (delete i (c_clients s))
  | VFailAfter i now =>
      match c_clients s !! i with
      | Some c =>
          match cl_next c with
          | inl q =>
              let '(_, st') := ostore_step rank pagesz now (c_store s) q in
              {| c_store := st'; c_clients := delete i (c_clients s);
                 c_hist := hist_after (c_store s) st' (c_hist s); c_next := c_next s; c_sub := c_sub s;
                 c_cut := c_cut s; c_best := c_best s |}
          | inr _ => s
          end
      | None => s
      end
  end.

Definition csys0 : csys :=
  {| c_store := ostore0; c_clients := ∅; c_hist := []; c_next := 1%N; c_sub := ∅; c_cut := 0; c_best := None |}.
End Chain.

(** the id an add-version machine still has to commit or withdraw *)
Definition owned (c : cpc) : option N :=
  match c with A0 _ c _ | A1 _ c _ _ | A2 _ c _ _ | A3 _ c => Some c | _ => None end.

Record cview := {
  v_latest : option N; v_vers : gmap (N * N) (N * N); v_snaps : gmap N N; v_hist : list N; v_next : N;
  v_sub : gmap N (N * N); v_cut : nat; v_best : option N }.

Definition view (s : csys) : cview :=
  {| v_latest := o_latest (c_store s); v_vers := o_vers (c_store s); v_snaps := o_snaps (c_store s);
     v_hist := c_hist s; v_next := c_next s; v_sub := c_sub s; v_cut := c_cut s; v_best := c_best s |}.

Definition at_pos (v : cview) (k : nat) (c : N) : Prop := v_hist v !! k = Some c.
Definition before (v : cview) (a b : N) : Prop :=
  exists ka kb, at_pos v ka a /\ at_pos v kb b /\ (ka < kb)%nat.

Definition fresh_id (v : cview) (p c pl : N) : Prop :=
  (0 < c)%N /\ (c < v_next v)%N /\ c ∉ v_hist v /\ v_sub v !! c = Some (p, pl)
  /\ (p = 0%N \/ p ∈ v_hist v).

(** the swap of an add-version that read [l] as the latest version can no
    longer succeed *)
Definition lost (v : cview) (l : option N) : Prop :=
  match l with
  | Some p => exists k, at_pos v k p /\ (S k < length (v_hist v))%nat
  | None => v_hist v <> []
  end.

(** an object (p, c) seen in a listing: its id was handed out with that parent *)
Definition listed (v : cview) (x : N * N * N) : Prop := exists pl, v_sub v !! x.1.2 = Some (x.1.1, pl).

(** (p, c) lost the race: another child of p is on the chain *)
Definition loser (v : cview) (d : N * N) : Prop :=
  (exists pl, v_sub v !! d.2 = Some (d.1, pl))
  /\ exists c' pl', c' ∈ v_hist v /\ c' <> d.2 /\ v_sub v !! c' = Some (d.1, pl').

(** a snapshot that may be deleted: of the nil version (which no version is), of a
    version that lost the race, or of a chain version older than [best] *)
Definition snap_del_ok (v : cview) (x : N) : Prop :=
  x = 0%N \/ (exists p, loser v (p, x)) \/ exists b, v_best v = Some b /\ before v x b.

(** a chain version below the cut *)
Definition old_ok (v : cview) (d : N * N) : Prop :=
  exists k pl, at_pos v k d.2 /\ (k < v_cut v)%nat /\ v_sub v !! d.2 = Some (d.1, pl).

Definition kl (v : cview) (l : option N) : Prop := forall l0, l = Some l0 -> l0 ∈ v_hist v.

(** [G0]-[G2]: a candidate child is not the nil version, so one that has
    children has been latest.  [K3]: a snapshot listed on an earlier page may
    have been deleted since by another cleanup; then it was deletable and
    stays so (last clause of [moved]).  [A1], [A2]: the value read as latest
    is on the chain, which makes the owner of a deleted race loser [lost]
    ([loser_owner_lost]); C09's [client_ok] does without that. *)
Definition client_ok (v : cview) (c : cpc) : Prop :=
  match c with
  | A0 p c pl => fresh_id v p c pl /\ (forall p', v_vers v !! (p', c) = None)
  | A1 p c pl l => fresh_id v p c pl /\ (forall p', v_vers v !! (p', c) = None)
                   /\ (forall l0, l = Some l0 -> l0 = p /\ l0 ∈ v_hist v)
  | A2 p c pl l => fresh_id v p c pl
                   /\ (forall p', is_Some (v_vers v !! (p', c)) -> p' = p)
                   /\ (is_Some (v_vers v !! (p, c)) \/ lost v l)
                   /\ (forall l0, l = Some l0 -> l0 = p /\ l0 ∈ v_hist v)
  | A3 p c => (c < v_next v)%N /\ c ∉ v_hist v /\ (forall p', is_Some (v_vers v !! (p', c)) -> p' = p)
  | A4 => True
  | A5 c => c ∈ v_hist v
  | G0 _ acc _ => Forall (fun c => (0 < c)%N) acc
  | G1 _ ch => Forall (fun c => (0 < c)%N) ch
  | G2 _ todo cur ne _ best =>
      Forall (fun c => (0 < c)%N) todo /\ (0 < cur)%N /\ (ne = true -> cur ∈ v_hist v)
      /\ (forall b, best = Some b -> b ∈ v_hist v)
  | G3 _ c => c ∈ v_hist v
  | S0 _ _ | T0 | T1 _ => True
  | K0 => True
  | K1 l acc _ => kl v l /\ Forall (listed v) acc
  | K2 l vers dels => kl v l /\ Forall (listed v) vers /\ Forall (loser v) dels
  | K3 l vers acc _ => kl v l /\ Forall (listed v) vers
                       /\ Forall (fun x => x ∈ dom (v_snaps v) \/ snap_del_ok v x) acc
  | K4 sdels vdels => Forall (snap_del_ok v) sdels /\ Forall (old_ok v) vdels
  | K5 vdels => Forall (old_ok v) vdels
  | CDone _ => False
  end.

Definition Core (v : cview) : Prop :=
  (* the ghost history tracks latest *)
  v_latest v = last (v_hist v)
  /\ NoDup (v_hist v)
  /\ (0 < v_next v)%N
  /\ (forall c, c ∈ v_hist v -> (0 < c)%N /\ (c < v_next v)%N)
  (* every version on the chain was submitted as the child of its predecessor
     (the first one as a child of the nil version), and from the cut onward
     its object is in the store *)
  /\ (forall k c, at_pos v k c ->
        exists p pl, v_sub v !! c = Some (p, pl)
                  /\ (forall k', k = S k' -> at_pos v k' p) /\ (k = 0%nat -> p = 0%N)
                  /\ ((v_cut v <= k)%nat -> is_Some (v_vers v !! (p, c))))
  (* objects carry ids already handed out, hang below the nil version or a version that has
     been latest, and hold what was submitted under their id *)
  /\ (forall p c x, v_vers v !! (p, c) = Some x ->
        (0 < c)%N /\ (c < v_next v)%N /\ (p = 0%N \/ p ∈ v_hist v) /\ v_sub v !! c = Some (p, x.1))
  /\ (forall c x, v_sub v !! c = Some x -> (0 < c)%N /\ (c < v_next v)%N)
  (* retention *)
  /\ (v_cut v <= length (v_hist v))%nat
  /\ (forall b, v_best v = Some b -> b ∈ dom (v_snaps v) /\ b ∈ v_hist v)
  /\ ((0 < v_cut v)%nat -> exists b kb, v_best v = Some b /\ at_pos v kb b /\ (v_cut v <= S kb)%nat).

Definition Own (m : gmap nat cpc) : Prop :=
  forall i j c c' x, i <> j -> m !! i = Some c -> m !! j = Some c' ->
    owned c = Some x -> owned c' = Some x -> False.

Definition CInv (s : csys) : Prop :=
  Core (view s)
  /\ (forall i c, c_clients s !! i = Some c -> client_ok (view s) c)
  /\ Own (c_clients s).

(** what only grows *)
Definition ext (v v' : cview) : Prop :=
  v_hist v `prefix_of` v_hist v'
  /\ (forall c x, v_sub v !! c = Some x -> v_sub v' !! c = Some x)
  /\ (v_next v <= v_next v')%N
  /\ (v_cut v <= v_cut v')%nat
  /\ (forall b, v_best v = Some b -> exists b', v_best v' = Some b' /\ (b' = b \/ before v' b b')).

Lemma ext_refl v : ext v v.
Proof. repeat split; auto. intros b Hb. exists b. auto. Qed.

Lemma at_pos_ext v v' k c : ext v v' -> at_pos v k c -> at_pos v' k c.
Proof. intros (H & _) Hk. unfold at_pos in *. eapply prefix_lookup; eauto. Qed.

Lemma in_hist_ext v v' c : ext v v' -> c ∈ v_hist v -> c ∈ v_hist v'.
Proof. intros E [k Hk]%elem_of_list_lookup. eapply elem_of_list_lookup_2, at_pos_ext; eauto. Qed.

Lemma before_ext v v' a b : ext v v' -> before v a b -> before v' a b.
Proof. intros E (ka & kb & H1 & H2 & H3). exists ka, kb. eauto using at_pos_ext. Qed.

Lemma before_trans v a b c : NoDup (v_hist v) -> before v a b -> before v b c -> before v a c.
Proof.
  intros ND (ka & kb & H1 & H2 & H3) (kb' & kc & H4 & H5 & H6).
  assert (kb = kb') as -> by (eapply NoDup_lookup; eauto).
  exists ka, kc. repeat split; auto. lia.
Qed.

Lemma kl_ext v v' l : ext v v' -> kl v l -> kl v' l.
Proof. intros E H l0 Hl. eapply in_hist_ext; eauto. Qed.

Lemma listed_ext v v' x : ext v v' -> listed v x -> listed v' x.
Proof. intros (_ & E & _) [pl H]. exists pl. auto. Qed.

Lemma loser_ext v v' d : ext v v' -> loser v d -> loser v' d.
Proof.
  intros E ([pl H1] & c' & pl' & H2 & H3 & H4). pose proof E as (_ & Es & _). split; [eauto|].
  exists c', pl'. repeat split; eauto using in_hist_ext.
Qed.

Lemma lost_ext v v' l : ext v v' -> lost v l -> lost v' l.
Proof.
  intros E. pose proof E as (Hp & _). destruct l as [p|]; cbn.
  - intros (k & H1 & H2). exists k. split; [eapply at_pos_ext; eauto|].
    apply prefix_length in Hp. lia.
  - intros Hne Hnil. rewrite Hnil in Hp. apply prefix_nil_inv in Hp. contradiction.
Qed.

Lemma old_ok_ext v v' d : ext v v' -> old_ok v d -> old_ok v' d.
Proof.
  intros E (k & pl & H1 & H2 & H3). pose proof E as (_ & Es & _ & Ec & _).
  exists k, pl. repeat split; eauto using at_pos_ext. lia.
Qed.

Lemma snap_del_ok_ext v v' x : NoDup (v_hist v') -> ext v v' -> snap_del_ok v x -> snap_del_ok v' x.
Proof.
  intros ND E [->|[[p H]|(b & Hb & Hx)]]; [left; reflexivity|right; left; exists p; eapply loser_ext; eauto|].
  right. right. pose proof E as (_ & _ & _ & _ & Eb). destruct (Eb b Hb) as (b' & Hb' & [->|Hbb]).
  - exists b. split; [exact Hb'|]. eapply before_ext; eauto.
  - exists b'. split; [exact Hb'|]. eapply before_trans; eauto. eapply before_ext; eauto.
Qed.

(** how a step moves the view, as seen by the clients that did not make it;
    [x] is the one id whose objects may have changed *)
Definition moved (v v' : cview) (x : N) : Prop :=
  ext v v'
  /\ (forall p c, c <> x -> v_vers v' !! (p, c) = v_vers v !! (p, c))
  /\ (forall c, c ∈ v_hist v' -> c ∈ v_hist v \/ c = x)
  /\ (forall y, y ∈ dom (v_snaps v) -> y ∈ dom (v_snaps v') \/ snap_del_ok v' y).

Lemma fresh_id_moved v v' x p c pl : moved v v' x -> c <> x -> fresh_id v p c pl -> fresh_id v' p c pl.
Proof.
  intros (E & M1 & M2 & M3) Hne (F1 & F2 & F3 & F4 & F5). pose proof E as (_ & Es & En & _).
  repeat split; auto; [lia| |destruct F5; eauto using in_hist_ext].
  intros [Hin| ->]%M2; auto.
Qed.

Lemma client_ok_moved v v' x c :
  NoDup (v_hist v') -> moved v v' x -> owned c <> Some x -> client_ok v c -> client_ok v' c.
Proof.
  intros ND M Hown. pose proof M as (E & M1 & M2 & M3). pose proof E as (_ & _ & En & _).
  pose proof (fun y => snap_del_ok_ext v v' y ND E) as Hsnap.
  destruct c; cbn in *; try exact (fun H => H); try (assert (c <> x) as Hne by congruence).
  - intros [F Hn]. split; [eapply fresh_id_moved; eauto|]. intros p'. rewrite M1 by exact Hne. apply Hn.
  - intros (F & Hn & Hl). split; [eapply fresh_id_moved; eauto|]. split.
    + intros p'. rewrite M1 by exact Hne. apply Hn.
    + intros l0 Hl0. destruct (Hl l0 Hl0). eauto using in_hist_ext.
  - intros (F & Hu & He & Hl). split; [eapply fresh_id_moved; eauto|]. split; [|split].
    + intros p'. rewrite M1 by exact Hne. apply Hu.
    + rewrite M1 by exact Hne. destruct He; eauto using lost_ext.
    + intros l0 Hl0. destruct (Hl l0 Hl0). eauto using in_hist_ext.
  - intros (F1 & F2 & Hu). split; [lia|]. split.
    + intros [Hin| ->]%M2; auto.
    + intros p'. rewrite M1 by exact Hne. apply Hu.
  - eauto using in_hist_ext.
  - intros (H1 & H2 & H3 & H4). split; [exact H1|]. split; [exact H2|]. split; eauto using in_hist_ext.
  - eauto using in_hist_ext.
  - (* what a cleanup has collected stays true *)
    intros [H1 H2]. eauto using kl_ext, Forall_impl, listed_ext.
  - intros (H1 & H2 & H3). repeat split; eauto using kl_ext, Forall_impl, listed_ext, loser_ext.
  - intros (H1 & H2 & H3). split; [eapply kl_ext; eauto|]. split; [eauto using Forall_impl, listed_ext|].
    eapply Forall_impl; [exact H3|]. intros y [Hy|Hy]; auto.
  - intros [H1 H2]. eauto using Forall_impl, old_ok_ext.
  - eauto using Forall_impl, old_ok_ext.
Qed.

(** [Core] is C09's chain invariant at the cut, and what retention adds *)
Definition base (v : cview) : CloudInvP.cview :=
  {| CloudInvP.v_latest := v_latest v; CloudInvP.v_vers := v_vers v; CloudInvP.v_hist := v_hist v;
     CloudInvP.v_next := v_next v; CloudInvP.v_sub := v_sub v |}.

Definition Retained (v : cview) : Prop :=
  (* no id is the nil version: the walk back along parents stops there *)
  (forall c x, v_sub v !! c = Some x -> (0 < c)%N)
  /\ (forall b, v_best v = Some b -> b ∈ dom (v_snaps v) /\ b ∈ v_hist v)
  /\ ((0 < v_cut v)%nat -> exists b kb, v_best v = Some b /\ at_pos v kb b /\ (v_cut v <= S kb)%nat).

Lemma Core_split v : Core v <-> CloudInvP.ChainInv (v_cut v) (base v) /\ Retained v.
Proof.
  split.
  - intros (I1 & I2 & I3 & I4 & I5 & I6 & I7 & J1 & J2 & J3). split; [split; auto|split; [|auto]]; try (intros; eapply I7; eassumption).
    intros k c Hk. destruct (I5 k c Hk) as (p & pl & H1 & H2 & H3 & H4). exists p, pl. repeat split; assumption.
  - intros [[C1 C2 C3 C4 C5 C6 C7] (R1 & R2 & R3)].
    split; [exact C1|]. split; [exact C2|]. split; [exact C7|]. split; [exact C3|].
    split; [|split; [exact C5|split; [|split; [|split; [exact R2|exact R3]]]]].
    + intros k c Hk. destruct (C4 k c Hk) as (p & pl & H1 & [H2 H3] & H4). exists p, pl. auto.
    + intros c x Hc. split; [exact (R1 c x Hc)|exact (C6 c x Hc)].
    + (* the cut lies behind [best], which is on the chain *)
      destruct (v_cut v) as [|cu] eqn:Ec; [lia|]. destruct R3 as (b & kb & _ & Hkb%lookup_lt_Some & Hle); lia.
Qed.

Lemma Retained_ext v v' :
  Retained v -> v_hist v `prefix_of` v_hist v' -> v_sub v' = v_sub v ->
  v_cut v' = v_cut v -> v_best v' = v_best v -> (forall b, v_best v = Some b -> b ∈ dom (v_snaps v')) ->
  Retained v'.
Proof.
  intros (R1 & R2 & R3) Hh Hs Hc Hb Hd. unfold Retained. rewrite Hs, Hc, Hb. split; [exact R1|]. split.
  - intros b Eb. split; [auto|]. destruct (R2 b Eb) as [_ [k Hk]%elem_of_list_lookup].
    eapply elem_of_list_lookup_2, prefix_lookup; eauto.
  - intros Hcut. destruct (R3 Hcut) as (b & kb & Eb & Hkb & Hle). exists b, kb. split; [exact Eb|]. split; [|exact Hle].
    eapply prefix_lookup; eauto.
Qed.

Lemma Core_nodup v : Core v -> NoDup (v_hist v).
Proof. intros [HI _]%Core_split. exact (CloudInvP.ci_nodup _ _ HI). Qed.

Lemma parent_position v k c p pl :
  Core v -> at_pos v k c -> v_sub v !! c = Some (p, pl) ->
  (forall k', k = S k' -> at_pos v k' p) /\ (k = 0%nat -> p = 0%N).
Proof.
  intros [HI _]%Core_split Hk Hs. destruct (CloudInvP.ci_chain _ _ HI k c Hk) as (p0 & pl0 & Hs0 & Hl & _).
  cbn in Hs0. rewrite Hs in Hs0. injection Hs0 as <- <-. exact Hl.
Qed.

Lemma same_parent_same_version v c1 c2 p pl1 pl2 :
  Core v -> c1 ∈ v_hist v -> c2 ∈ v_hist v ->
  v_sub v !! c1 = Some (p, pl1) -> v_sub v !! c2 = Some (p, pl2) -> c1 = c2.
Proof. intros [HI _]%Core_split. exact (CloudInvP.same_parent_same_version _ (base v) c1 c2 p pl1 pl2 HI). Qed.

(** a race loser is not on the chain (and, by stability of [loser], never will be) *)
Lemma loser_not_on_chain v d : Core v -> loser v d -> d.2 ∉ v_hist v.
Proof.
  intros HC ([pl H1] & c' & pl' & H2 & H3 & H4) Hin.
  apply H3. eapply same_parent_same_version; eauto.
Qed.

(** a deletable snapshot of a chain version is older than [best]'s: a chain
    version is neither the nil version nor a race loser *)
Lemma snap_del_ok_on_chain v x :
  Core v -> x ∈ v_hist v -> snap_del_ok v x -> exists b, v_best v = Some b /\ before v x b.
Proof.
  intros HC Hin [->|[[p HL]|Hb]]; [|destruct (loser_not_on_chain v (p, x) HC HL Hin)|exact Hb].
  apply Core_split in HC as [HI _]. apply (CloudInvP.ci_hist_ids _ _ HI) in Hin. lia.
Qed.

(** whoever read [l] as latest and has [lost] cannot swap any more *)
Lemma lost_not_latest v l : Core v -> lost v l -> v_latest v <> l.
Proof.
  intros [HI _]%Core_split HL Heq. pose proof (CloudInvP.ci_latest _ _ HI) as I1. cbn in I1. rewrite I1 in Heq.
  destruct l as [p|]; cbn in HL.
  - destruct HL as (k & Hk & Hlt). rewrite last_lookup in Heq.
    assert (k = pred (length (v_hist v))) by (eapply NoDup_lookup; eauto using (CloudInvP.ci_nodup _ _ HI)). lia.
  - apply last_None in Heq. contradiction.
Qed.

(** the loser of a race whose owner is still waiting to swap has lost *)
Lemma loser_owner_lost v p c l :
  Core v -> (forall l0, l = Some l0 -> l0 = p /\ l0 ∈ v_hist v) -> loser v (p, c) -> lost v l.
Proof.
  intros HC Hl (_ & c' & pl' & [k' Hk']%elem_of_list_lookup & Hne & Hs). cbn in *.
  destruct l as [l0|]; cbn; [|intros Hnil; rewrite Hnil in Hk'; discriminate].
  destruct (Hl l0 eq_refl) as [-> Hp]. destruct (parent_position v k' c' p pl' HC Hk' Hs) as [P Z].
  destruct k' as [|k''].
  - apply Core_split in HC as [HI _]. apply (CloudInvP.ci_hist_ids _ _ HI) in Hp. specialize (Z eq_refl). lia.
  - exists k''. split; [apply P; reflexivity|]. apply lookup_lt_Some in Hk'. lia.
Qed.

Definition set_vers (v : cview) (m : gmap (N * N) (N * N)) : cview :=
  {| v_latest := v_latest v; v_vers := m; v_snaps := v_snaps v; v_hist := v_hist v; v_next := v_next v;
     v_sub := v_sub v; v_cut := v_cut v; v_best := v_best v |}.
Definition set_snaps (v : cview) (m : gmap N N) : cview :=
  {| v_latest := v_latest v; v_vers := v_vers v; v_snaps := m; v_hist := v_hist v; v_next := v_next v;
     v_sub := v_sub v; v_cut := v_cut v; v_best := v_best v |}.
Definition put_view (v : cview) (p c pl now : N) := set_vers v (<[(p, c) := (pl, now)]> (v_vers v)).
Definition del_view (v : cview) (p c : N) := set_vers v (delete (p, c) (v_vers v)).
Definition putsnap_view (v : cview) (x pl : N) := set_snaps v (<[x := pl]> (v_snaps v)).
Definition delsnap_view (v : cview) (x : N) := set_snaps v (delete x (v_snaps v)).
Definition cas_view (v : cview) (c : N) : cview :=
  {| v_latest := Some c; v_vers := v_vers v; v_snaps := v_snaps v; v_hist := v_hist v ++ [c]; v_next := v_next v;
     v_sub := v_sub v; v_cut := v_cut v; v_best := v_best v |}.
Definition plan_view (v : cview) (cut : nat) (best : option N) : cview :=
  {| v_latest := v_latest v; v_vers := v_vers v; v_snaps := v_snaps v; v_hist := v_hist v; v_next := v_next v;
     v_sub := v_sub v; v_cut := cut; v_best := best |}.
Definition start_view (v : cview) (p pl : N) : cview :=
  {| v_latest := v_latest v; v_vers := v_vers v; v_snaps := v_snaps v; v_hist := v_hist v;
     v_next := (v_next v + 1)%N; v_sub := <[v_next v := (p, pl)]> (v_sub v); v_cut := v_cut v; v_best := v_best v |}.

(** [set_vers v m] and [set_snaps v m] have the ghosts of [v]: what is said of these is
    said of [v], by computation *)
Lemma moved_set_vers v m x :
  (forall p c, c <> x -> m !! (p, c) = v_vers v !! (p, c)) -> moved v (set_vers v m) x.
Proof. intros H. split; [exact (ext_refl v)|]. split; [exact H|]. split; cbn; auto. Qed.
Lemma moved_put v p c pl now : moved v (put_view v p c pl now) c.
Proof. apply moved_set_vers. intros p' c' Hne. apply lookup_insert_ne. congruence. Qed.
Lemma moved_del v p c : moved v (del_view v p c) c.
Proof. apply moved_set_vers. intros p' c' Hne. apply lookup_delete_ne. congruence. Qed.

Lemma moved_set_snaps v m y :
  (forall z, z ∈ dom (v_snaps v) -> z ∈ dom m \/ snap_del_ok v z) -> moved v (set_snaps v m) y.
Proof.
  intros H. split; [exact (ext_refl v)|]. split; [|split]; cbn; auto.
Qed.
Lemma moved_putsnap v x pl y : moved v (putsnap_view v x pl) y.
Proof. apply moved_set_snaps. intros z Hz. left. apply dom_insert_subseteq, Hz. Qed.
Lemma moved_delsnap v x y : snap_del_ok v x -> moved v (delsnap_view v x) y.
Proof.
  intros Hx. apply moved_set_snaps. intros z Hz. destruct (decide (z = x)) as [->|Hne]; [right; exact Hx|].
  left. apply elem_of_dom. rewrite lookup_delete_ne by congruence. apply elem_of_dom, Hz.
Qed.

Lemma moved_cas v c : moved v (cas_view v c) c.
Proof.
  split; [|split; [|split]]; cbn; auto.
  - repeat split; cbn; auto; [apply prefix_app_r; reflexivity|]. intros b Hb. exists b. auto.
  - intros c'. rewrite elem_of_app, elem_of_list_singleton. auto.
Qed.

Lemma moved_start v p pl x : Core v -> moved v (start_view v p pl) x.
Proof.
  intros [HI _]%Core_split. repeat split; cbn; auto; try lia.
  - intros c y. apply (CloudInvP.start_keeps_sub _ (base v) p pl c y HI).
  - intros b Hb. exists b. auto.
Qed.

Lemma moved_plan v cut' best' x :
  (v_cut v <= cut')%nat ->
  (forall b, v_best v = Some b -> exists b', best' = Some b' /\ (b' = b \/ before v b b')) ->
  moved v (plan_view v cut' best') x.
Proof. intros H1 H2. repeat split; cbn; auto. Qed.

Lemma Core_put v p c pl now : Core v -> fresh_id v p c pl -> Core (put_view v p c pl now).
Proof.
  intros [HI HR]%Core_split HF. apply Core_split. split; [exact (CloudInvP.ChainInv_put _ (base v) p c pl now HI HF)|].
  exact HR.
Qed.

Lemma Core_cas v p c pl l :
  Core v -> client_ok v (A2 p c pl l) -> v_latest v = l -> Core (cas_view v c).
Proof.
  intros HC ((_ & _ & F3 & _) & _ & He & Hl) Hlat.
  assert (is_Some (v_vers v !! (p, c))) as Hobj by (destruct He as [He|He]; [exact He|]; exfalso; eapply lost_not_latest; eauto).
  apply Core_split in HC as [HI HR]. apply Core_split. split.
  - apply (CloudInvP.ChainInv_cas _ (base v) p c HI F3 Hobj). cbn. intros l0 Hl0. apply Hl. congruence.
  - apply (Retained_ext v _ HR); try reflexivity; [apply prefix_app_r; reflexivity|apply HR].
Qed.

Lemma Core_del v p c :
  Core v -> (c ∉ v_hist v \/ old_ok v (p, c)) -> Core (del_view v p c).
Proof.
  intros [HI HR]%Core_split Hd. apply Core_split. split; [|exact HR].
  apply (CloudInvP.ChainInv_del _ (base v) p c HI). cbn. intros k Hk.
  destruct Hd as [Hd|(k1 & pl1 & Hk1 & Hlt & _)]; [destruct Hd; eapply elem_of_list_lookup_2, Hk|].
  assert (k = k1) as -> by (eapply NoDup_lookup; eauto using (CloudInvP.ci_nodup _ _ HI)). exact Hlt.
Qed.

Lemma Core_putsnap v x pl : Core v -> Core (putsnap_view v x pl).
Proof.
  intros [HI HR]%Core_split. apply Core_split. split; [exact HI|].
  apply (Retained_ext v _ HR); try reflexivity.
  intros b Hb. cbn. rewrite dom_insert. apply elem_of_union. right. apply HR, Hb.
Qed.

Lemma Core_delsnap v x : Core v -> snap_del_ok v x -> Core (delsnap_view v x).
Proof.
  intros HC Hx. pose proof HC as [HI HR]%Core_split. apply Core_split. split; [exact HI|].
  apply (Retained_ext v _ HR); try reflexivity.
  (* the snapshot the cut relies on is none of the deletable ones *)
  intros b Hb. destruct HR as (_ & R2 & _). destruct (R2 b Hb) as [Hd Hin].
  cbn. rewrite dom_delete. apply elem_of_difference. split; [exact Hd|].
  intros ->%elem_of_singleton. destruct (snap_del_ok_on_chain v x HC Hin Hx) as (b & Hb' & ka & kb & Ha & Hb'' & Hlt).
  rewrite Hb in Hb'. injection Hb' as <-.
  assert (ka = kb) by (eapply NoDup_lookup; eauto using (CloudInvP.ci_nodup _ _ HI)). lia.
Qed.

Lemma Core_start v p pl : Core v -> Core (start_view v p pl).
Proof.
  intros [HI HR]%Core_split. apply Core_split. split; [exact (CloudInvP.ChainInv_start _ (base v) p pl HI)|].
  split; [cbn|exact (proj2 HR)].
  intros c y [[<- _]|[_ Hc]]%lookup_insert_Some; [exact (CloudInvP.ci_next _ _ HI)|exact (proj1 HR c y Hc)].
Qed.

Lemma pos_Some h c k : pos h c = Some k -> h !! k = Some c.
Proof.
  revert k. induction h as [|x h IH]; intros k; cbn; [discriminate|].
  destruct (N.eqb_spec x c) as [->|Hne]; [intros [= <-]; reflexivity|].
  destruct (pos h c) as [k0|]; cbn; [|discriminate]. intros [= <-]. apply IH. reflexivity.
Qed.

Lemma pos_None h c : pos h c = None -> c ∉ h.
Proof.
  induction h as [|x h IH]; cbn; [intros _ []%elem_of_nil|].
  destruct (N.eqb_spec x c) as [->|Hne]; [discriminate|].
  destruct (pos h c); [discriminate|]. intros _ [->|Hin]%elem_of_cons; [congruence|]. apply IH; auto.
Qed.

Lemma parent_of_listed v vers c p :
  Forall (listed v) vers -> parent_of vers c = Some p -> exists pl, v_sub v !! c = Some (p, pl).
Proof.
  intros HF H. unfold parent_of in H. destruct (find _ vers) as [x|] eqn:E; [|discriminate].
  injection H as <-. apply find_some in E as [Hin <-%N.eqb_eq].
  exact (proj1 (Forall_forall _ _) HF x (proj2 (elem_of_list_In _ _) Hin)).
Qed.

(** the chain a cleanup reconstructs, newest first, is the true chain from
    position [k] downwards: every entry is a chain version with its submitted
    parent, and the list stops at position 0 at the latest *)
Fixpoint chain_ok (v : cview) (k : nat) (chain : list (N * N)) {struct chain} : Prop :=
  match chain with
  | [] => True
  | (c, p) :: rest =>
      at_pos v k c /\ (exists pl, v_sub v !! c = Some (p, pl))
      /\ match k with O => rest = [] | S k' => chain_ok v k' rest end
  end.

Lemma walk_ok v vers fuel : forall k c,
  Core v -> Forall (listed v) vers -> at_pos v k c -> chain_ok v k (walk_back fuel vers c).
Proof.
  induction fuel as [|f IH]; intros k c HC HF Hk; cbn; [exact I|].
  destruct (parent_of vers c) as [p|] eqn:Ep; [|exact I].
  destruct (parent_of_listed v vers c p HF Ep) as [pl Hs]. cbn.
  split; [exact Hk|]. split; [eauto|].
  destruct (parent_position v k c p pl HC Hk Hs) as [P Z]. destruct k as [|k']; [|apply IH; auto].
  (* the first version hangs below the nil version, which nothing was submitted under *)
  specialize (Z eq_refl). subst p. destruct f as [|f']; [reflexivity|]. cbn.
  destruct (parent_of vers 0%N) as [q|] eqn:Eq; [|reflexivity].
  destruct (parent_of_listed v vers 0%N q HF Eq) as [pl0 Hs0].
  apply Core_split in HC as [_ [R1 _]]. apply R1 in Hs0. lia.
Qed.

(** the [i]-th entry of the reconstructed chain is the link at position [k - i] *)
Lemma chain_ok_lookup v : forall chain k i e,
  chain_ok v k chain -> chain !! i = Some e ->
  (i <= k)%nat /\ at_pos v (k - i) e.1 /\ exists pl, v_sub v !! e.1 = Some (e.2, pl).
Proof.
  induction chain as [|[c p] rest IH]; intros k i e Hok Hi; [discriminate|]. destruct Hok as (Hk & Hs & Hrest).
  destruct i as [|i]; [injection Hi as <-; rewrite Nat.sub_0_r; split; [lia|auto]|].
  destruct k as [|k']; [subst rest; discriminate|]. destruct (IH k' i e Hrest Hi) as (? & ? & ?). split; [lia|auto].
Qed.

(** the versions named by the reconstructed chain, newest first, with their positions *)
Lemma chain_versions_positions v : forall chain k c i x,
  Core v -> chain_ok v k chain -> at_pos v k c -> (c :: map snd chain) !! i = Some x ->
  (x = 0%N /\ i = S k) \/ ((i <= k)%nat /\ at_pos v (k - i) x).
Proof.
  intros chain k c i x HC Hok Hk Hi. destruct i as [|i]; [injection Hi as <-; rewrite Nat.sub_0_r; right; split; [lia|exact Hk]|].
  cbn in Hi. apply list_lookup_fmap_Some in Hi as (e & He & ->).
  destruct (chain_ok_lookup v chain k i e Hok He) as (Hle & Hat & pl & Hs).
  destruct (parent_position v _ _ _ _ HC Hat Hs) as [P Z]. destruct (k - i)%nat as [|k'] eqn:Ek.
  - left. split; [auto|lia].
  - right. split; [lia|]. replace (k - S i)%nat with k' by lia. apply P. reflexivity.
Qed.

Lemma Core_plan v cut' best' :
  Core v -> (v_cut v <= cut')%nat ->
  (forall b, best' = Some b -> b ∈ dom (v_snaps v) /\ b ∈ v_hist v) ->
  ((0 < cut')%nat -> exists b kb, best' = Some b /\ at_pos v kb b /\ (cut' <= S kb)%nat) ->
  Core (plan_view v cut' best').
Proof.
  intros [HI (R1 & _)]%Core_split H1 H2 H3. apply Core_split. split; [|exact (conj R1 (conj H2 H3))].
  exact (CloudInvP.ChainInv_cut_mono _ _ (base v) H1 HI).
Qed.

(** The ghosts after a step of machine [c], which completes a plan if
    [plan_snapshot c r] is some [s]: the invariant holds again, nothing has
    moved for the clients, and if [s] is on the chain the new cut lies just
    behind it or further (so the new [best] is not before it: last clause of
    [Core]). *)
Lemma ghost_after_ok v c r x :
  Core v -> (forall s, plan_snapshot c r = Some s -> s ∈ dom (v_snaps v) \/ snap_del_ok v s) ->
  let g := ghost_after (v_hist v) (v_cut v) (v_best v) c r in
  let v' := plan_view v g.1 g.2 in
  Core v' /\ moved v v' x
  /\ forall s ks, plan_snapshot c r = Some s -> at_pos v ks s -> (ks < v_cut v')%nat.
Proof.
  intros HC Hs. cbn zeta. pose proof HC as [HI (R1 & R2 & R3)]%Core_split.
  assert (forall k k' y, at_pos v k y -> at_pos v k' y -> k = k') as Huniq
    by (intros k k' y; apply NoDup_lookup, (CloudInvP.ci_nodup _ _ HI)).
  assert (Core (plan_view v (v_cut v) (v_best v)) /\ moved v (plan_view v (v_cut v) (v_best v)) x) as [HC0 HM0].
  { split; [apply Core_plan; auto|apply moved_plan; [lia|eauto]]. }
  unfold ghost_after. destruct (plan_snapshot c r) as [s|]; [specialize (Hs s eq_refl)|].
  2:{ split; [exact HC0|]. split; [exact HM0|]. intros s ks [=]. }
  destruct (pos (v_hist v) s) as [ks|] eqn:Eps.
  2:{ (* a snapshot of something that is not on the chain (the nil version): the ghosts stay *)
      split; [exact HC0|]. split; [exact HM0|]. intros s0 ks [= <-] Hks%elem_of_list_lookup_2. destruct (pos_None _ _ Eps Hks). }
  pose proof (pos_Some _ _ _ Eps) as Hks.
  assert (s ∈ dom (v_snaps v) \/ exists b, v_best v = Some b /\ before v s b) as Hs'
    by (destruct Hs; eauto using snap_del_ok_on_chain, elem_of_list_lookup_2).
  set (best' := match v_best v with Some _ => _ | None => _ end). cbn [fst snd plan_view v_cut v_best].
  (* the new best is stored and is the later of [s] and the old one *)
  assert (exists b' kb', best' = Some b' /\ b' ∈ dom (v_snaps v) /\ at_pos v kb' b' /\ (ks <= kb')%nat
            /\ forall b kb, v_best v = Some b -> at_pos v kb b -> (kb <= kb')%nat /\ (b' = b \/ (kb < kb')%nat))
    as (b' & kb' & -> & Hd' & Hkb' & Hle & Hold).
  { unfold best'. destruct (v_best v) as [b|] eqn:Eb.
    - destruct (R2 b eq_refl) as [Hbd Hbin].
      destruct (pos (v_hist v) b) as [kb|] eqn:Ekb; [apply pos_Some in Ekb|destruct (pos_None _ _ Ekb Hbin)].
      destruct (Nat.ltb_spec kb ks) as [Hlt|Hge].
      + exists s, ks. split; [reflexivity|]. split; [|split; [exact Hks|split; [lia|]]].
        * destruct Hs' as [Hd|(b0 & [= <-] & ka & kb0 & Ha & Hb0 & Hlt')]; [exact Hd|].
          rewrite (Huniq _ _ _ Ha Hks), (Huniq _ _ _ Hb0 Ekb) in Hlt'. lia.
        * intros b1 kb1 [= <-] Hb1. rewrite (Huniq _ _ _ Hb1 Ekb). split; [lia|right; exact Hlt].
      + exists b, kb. split; [reflexivity|]. split; [exact Hbd|]. split; [exact Ekb|]. split; [exact Hge|].
        intros b1 kb1 [= <-] Hb1. rewrite (Huniq _ _ _ Hb1 Ekb). auto.
    - exists s, ks. split; [reflexivity|]. split; [destruct Hs' as [Hd|(b0 & [=] & _)]; exact Hd|].
      split; [exact Hks|]. split; [lia|]. intros b kb [=]. }
  split; [|split].
  - apply Core_plan; [exact HC|lia| |].
    + intros b [= <-]. split; [exact Hd'|eapply elem_of_list_lookup_2, Hkb'].
    + intros _. exists b', kb'. split; [reflexivity|]. split; [exact Hkb'|].
      destruct (Nat.le_gt_cases (v_cut v) 0) as [|Hcut]; [lia|].
      destruct (R3 Hcut) as (b & kb & Eb & Hkb & Hcu). destruct (Hold b kb Eb Hkb). lia.
  - apply moved_plan; [lia|]. intros b Eb. exists b'. split; [reflexivity|].
    destruct (R2 b Eb) as [_ [kb Hkb]%elem_of_list_lookup].
    destruct (Hold b kb Eb Hkb) as [_ [->|Hlt]]; [left; reflexivity|right; exists kb, kb'; auto].
  - intros s0 ks0 [= <-] Hks0. rewrite (Huniq _ _ _ Hks0 Hks). lia.
Qed.

Section Plan.
Variable rank : N -> N.
Variable threshold : N.

Lemma losers_are_losers v vers l fuel d :
  Core v -> Forall (listed v) vers -> kl v l ->
  d ∈ losers rank vers (match l with Some l0 => walk_back fuel vers l0 | None => [] end) -> loser v d.
Proof.
  intros HC HF Hl Hd. destruct l as [l0|]; [|apply elem_of_list_omap in Hd as (? & _ & [=])].
  destruct (proj1 (elem_of_list_lookup _ _) (Hl l0 eq_refl)) as [k Hk]. destruct d as [p c].
  destruct (losers_have_lost rank vers _ p c Hd) as ([t Hin] & c' & Hcc & Hne).
  split; [exact (proj1 (Forall_forall _ _) HF _ Hin)|]. cbn.
  unfold chain_child in Hcc. destruct (find _ _) as [e|] eqn:E; [|discriminate]. injection Hcc as <-.
  apply find_some in E as [[i Hi]%elem_of_list_In%elem_of_list_lookup <-%N.eqb_eq].
  destruct (chain_ok_lookup v _ k i e (walk_ok v vers fuel k l0 HC HF Hk) Hi) as (_ & Hat%elem_of_list_lookup_2 & pl' & Hs).
  exists e.1, pl'. auto.
Qed.

(** what a step must establish about the machine it leaves behind *)
Definition kpost (w : cview) (X : cpc) : Prop :=
  match X with CDone _ => True | _ => client_ok w X /\ owned X = None end.

Lemma after_k5_ok w vdels : Forall (old_ok w) vdels -> kpost w (after_k5 vdels).
Proof. intros H. destruct vdels; cbn; auto. Qed.

Lemma after_k4_ok w sdels vdels :
  Forall (snap_del_ok w) sdels -> Forall (old_ok w) vdels -> kpost w (after_k4 sdels vdels).
Proof. intros H1 H2. destruct sdels; [apply after_k5_ok; exact H2|]. cbn. auto. Qed.

(** what the plan deletes, by true positions: an old version is a chain version at or
    before that of the snapshot [s]; an old snapshot is the nil version's or
    of a chain version before that of [s] *)
Lemma old_versions_positions v vers chain k s d :
  chain_ok v k chain -> d ∈ old_versions threshold vers chain s ->
  exists ke ks pl, at_pos v ke d.2 /\ at_pos v ks s /\ (ke <= ks)%nat /\ v_sub v !! d.2 = Some (d.1, pl).
Proof.
  intros Hok (i & j & e0 & e & Hi & <- & Hj & Hij & -> & _)%old_versions_elem.
  destruct (chain_ok_lookup v chain k i e0 Hok Hi) as (_ & Hs & _), (chain_ok_lookup v chain k j e Hok Hj) as (_ & He & pl & Hsub).
  exists (k - j)%nat, (k - i)%nat, pl. repeat split; auto. lia.
Qed.

Lemma old_snapshots_positions v l0 chain k snaps s x :
  Core v -> at_pos v k l0 -> chain_ok v k chain -> x ∈ old_snapshots (Some l0) chain snaps s ->
  exists ks, at_pos v ks s /\ (x = 0%N \/ exists kx, at_pos v kx x /\ (kx < ks)%nat).
Proof.
  intros HC Hk Hok [_ (i & j & Hij & Hi & Hj)%drop_until_tail_elem]%old_snapshots_are_older. cbn [chain_versions] in Hi, Hj.
  destruct (chain_versions_positions v chain k l0 i s HC Hok Hk Hi) as [[-> ->]|[Hile Hiat]],
           (chain_versions_positions v chain k l0 j x HC Hok Hk Hj) as [[-> ->]|[Hjle Hjat]]; try lia.
  - exists (k - i)%nat. auto.
  - exists (k - i)%nat. split; [exact Hiat|]. right. exists (k - j)%nat. split; [exact Hjat|lia].
Qed.

Lemma plan_step v l vers acc after pg :
  Core v -> client_ok v (K3 l vers acc after) -> Forall (fun x => x ∈ dom (v_snaps v)) pg ->
  let r := PSnapPage pg false in
  let g := ghost_after (v_hist v) (v_cut v) (v_best v) (K3 l vers acc after) r in
  let v' := plan_view v g.1 g.2 in
  let c' := cl_resume rank threshold (K3 l vers acc after) r in
  Core v' /\ moved v v' (v_next v) /\ kpost v' c'.
Proof.
  intros HC (Hl & HF & Hacc) Hpg. cbn zeta.
  set (chain := match l with Some l0 => walk_back (S (length vers)) vers l0 | None => [] end).
  set (acc' := acc ++ pg).
  destruct (ghost_after_ok v (K3 l vers acc after) (PSnapPage pg false) (v_next v) HC) as (HC' & HM & Hplan).
  { cbn. intros s [Hs _]%latest_snapshot_on_chain. apply elem_of_app in Hs as [Hs|Hs].
    - exact (proj1 (Forall_forall _ _) Hacc s Hs).
    - left. exact (proj1 (Forall_forall _ _) Hpg s Hs). }
  split; [exact HC'|]. split; [exact HM|]. apply Core_split in HC' as [_ (_ & _ & R3)].
  revert R3 Hplan. generalize (ghost_after (v_hist v) (v_cut v) (v_best v) (K3 l vers acc after) (PSnapPage pg false)).
  intros g R3 Hplan. cbn [cl_resume]. fold chain acc'.
  (* snapshots of race losers may go whatever the plan is: [loser] does not look at the ghosts *)
  assert (Forall (snap_del_ok (plan_view v g.1 g.2))
            (filter (fun v0 : N => bool_decide (v0 ∈ acc')) (map snd (losers rank vers chain)))) as Hls.
  { apply Forall_forall. intros x [_ ([p c] & -> & Hd)%elem_of_list_fmap]%elem_of_list_filter.
    right. left. exists p. exact (losers_are_losers v vers l _ (p, c) HC HF Hl Hd). }
  destruct (latest_snapshot l chain acc') as [s|] eqn:Els; [|apply after_k4_ok; [exact Hls|constructor]].
  destruct (latest_snapshot_on_chain l chain acc' s Els) as [_ Hscv]. destruct l as [l0|]; [|inversion Hscv].
  (* the chain the cleanup knows is the true chain *)
  destruct (proj1 (elem_of_list_lookup _ _) (Hl l0 eq_refl)) as [k0 Hk0].
  pose proof (walk_ok v vers (S (length vers)) k0 l0 HC HF Hk0) as Hok.
  (* what is older than [s] on the known chain lies below the new cut, before the new best *)
  apply after_k4_ok.
  - apply Forall_app. split; [exact Hls|]. apply Forall_forall.
    intros x (ks & Hks & Hx)%(old_snapshots_positions v l0 chain k0 acc' s x HC Hk0 Hok).
    destruct Hx as [->|(kx & Hkx & Hlt)]; [left; reflexivity|].
    pose proof (Hplan s ks Els Hks) as Hcut. destruct R3 as (b & kb & Hb & Hkb & Hle); [lia|].
    right. right. exists b. split; [exact Hb|]. exists kx, kb. repeat split; auto. lia.
  - apply Forall_forall. intros d (ke & ks & pl & Hke & Hks & Hle & Hsub)%(old_versions_positions v vers chain k0 s d Hok).
    pose proof (Hplan s ks Els Hks) as Hlt. exists ke, pl. repeat split; auto. lia.
Qed.
End Plan.

Definition scan_post (v : cview) (X : cpc) : Prop :=
  match X with
  | CDone r0 => True
  | _ => client_ok v X /\ owned X = None
  end.

Lemma owned_fresh v c x : client_ok v c -> owned c = Some x -> (x < v_next v)%N /\ x ∉ v_hist v.
Proof.
  destruct c; cbn; try discriminate; intros H [= <-];
    [destruct H as [(_ & H1 & H2 & _) _]..|destruct H as (H1 & H2 & _)]; auto.
Qed.

Lemma strangers_next s i : CInv s -> strangers owned (c_clients s) i (c_next s).
Proof.
  intros (_ & Hcl & _) j cj _ Hj Ho. pose proof (proj1 (owned_fresh _ _ _ (Hcl _ _ Hj) Ho)) as Hlt. cbn in Hlt. lia.
Qed.

(** the owner of an id whose object a cleanup deletes as a race loser: if it
    is waiting to swap, it has lost *)
Lemma client_ok_loser_deleted v p c c0 :
  Core v -> client_ok v c0 -> owned c0 = Some c -> loser v (p, c) -> client_ok (del_view v p c) c0.
Proof.
  intros HC Hok Ho HL. destruct c0; cbn in Ho; try discriminate; injection Ho as ->; cbn in *.
  - destruct Hok as [F Hn]. split; [exact F|]. intros p'. apply lookup_delete_None. auto.
  - destruct Hok as (F & Hn & Hl). split; [exact F|]. split; [|exact Hl]. intros p'. apply lookup_delete_None. auto.
  - destruct Hok as (F & Hu & He & Hl). split; [exact F|]. split; [|split; [|exact Hl]].
    + intros p' [y [_ Hy]%lookup_delete_Some]. eauto.
    + right. assert (p = p0) as -> by (destruct HL as ([pl1 H1] & _), F as (_ & _ & _ & F4 & _); cbn in H1; congruence).
      exact (loser_owner_lost v p0 c l HC Hl HL).
  - destruct Hok as (F1 & F2 & Hu). split; [exact F1|]. split; [exact F2|]. intros p' [y [_ Hy]%lookup_delete_Some]. eauto.
Qed.

Section Run.
Variable rank : N -> N.
Variable pagesz : nat.
Variable threshold : N.
Notation cstep' := (cstep rank pagesz threshold).
Notation run evs := (fold_left cstep' evs csys0).

Definition view_after (s : csys) (st' : ostore) (g : nat * option N) : cview :=
  {| v_latest := o_latest st'; v_vers := o_vers st'; v_snaps := o_snaps st';
     v_hist := hist_after (c_store s) st' (c_hist s); v_next := c_next s; v_sub := c_sub s;
     v_cut := g.1; v_best := g.2 |}.

Lemma view_after_vers s m :
  view_after s {| o_latest := o_latest (c_store s); o_vers := m; o_snaps := o_snaps (c_store s) |} (c_cut s, c_best s)
  = set_vers (view s) m.
Proof. unfold view_after, hist_after. rewrite bool_decide_eq_true_2 by reflexivity. reflexivity. Qed.
Lemma view_after_snaps s m :
  view_after s {| o_latest := o_latest (c_store s); o_vers := o_vers (c_store s); o_snaps := m |} (c_cut s, c_best s)
  = set_snaps (view s) m.
Proof. unfold view_after, hist_after. rewrite bool_decide_eq_true_2 by reflexivity. reflexivity. Qed.
Lemma view_after_same s g : view_after s (c_store s) g = plan_view (view s) g.1 g.2.
Proof. unfold view_after, hist_after. rewrite bool_decide_eq_true_2 by reflexivity. reflexivity. Qed.

Definition post (v' : cview) (c' : cpc) : Prop :=
  match c' with CDone _ => True | _ => client_ok v' c' end.

Lemma kpost_post v' c' : kpost v' c' -> post v' c'.
Proof. destruct c'; [exact (fun H => proj1 H)..|exact (fun H => H)]. Qed.

Lemma next_scan_ok v p todo best :
  Forall (fun c => (0 < c)%N) todo -> (forall b, best = Some b -> b ∈ v_hist v) ->
  post v (next_scan p todo best).
Proof.
  intros Ht Hb. destruct todo as [|c2 rest]; [destruct best; cbn; auto|].
  inversion Ht; subst. cbn. repeat split; auto. discriminate.
Qed.

Lemma after_k2_ok v l vers dels :
  kl v l -> Forall (listed v) vers -> Forall (loser v) dels -> post v (after_k2 l vers dels).
Proof. intros H1 H2 H3. destruct dels; cbn; auto. Qed.

Lemma step_client s i now c q :
  CInv s -> c_clients s !! i = Some c -> cl_next c = inl q ->
  let rs := ostore_step rank pagesz now (c_store s) q in
  let v' := view_after s rs.2 (ghost_after (c_hist s) (c_cut s) (c_best s) c rs.1) in
  Core v' /\ (forall j cj, j <> i -> c_clients s !! j = Some cj -> client_ok v' cj)
  /\ post v' (cl_resume rank threshold c rs.1).
Proof.
  intros Hinv Hi Hq. pose proof Hinv as (HC & Hcl & Hown). pose proof (Hcl _ _ Hi) as Hok. cbn zeta.
  pose proof HC as [HI _]%Core_split. pose proof (Core_nodup _ HC) as ND.
  pose proof (CloudInvP.ci_vers _ _ HI) as I7. cbn in I7.
  (* a request that only reads, by a machine that is not about to plan *)
  assert (forall c', post (view s) c' ->
            Core (view_after s (c_store s) (c_cut s, c_best s))
            /\ (forall j cj, j <> i -> c_clients s !! j = Some cj ->
                  client_ok (view_after s (c_store s) (c_cut s, c_best s)) cj)
            /\ post (view_after s (c_store s) (c_cut s, c_best s)) c') as Same.
  { intros c' Hp. rewrite view_after_same. split; [exact HC|]. split; [intros j cj _; apply Hcl|exact Hp]. }
  (* a request that changes the view to [v'], touching only the id [x], which no other client owns *)
  assert (forall v' x, moved (view s) v' x -> NoDup (v_hist v') -> strangers owned (c_clients s) i x ->
            forall j cj, j <> i -> c_clients s !! j = Some cj -> client_ok v' cj) as Others.
  { intros v' x HM ND' Hx j cj Hne Hj. exact (client_ok_moved _ _ x cj ND' HM (Hx j cj Hne Hj) (Hcl _ _ Hj)). }
  pose proof (fun x => strangers_mine owned (c_clients s) i c x Hown Hi) as Mine.
  pose proof (strangers_next s i Hinv) as Hnext.
  assert (forall l0, o_latest (c_store s) = Some l0 -> l0 ∈ c_hist s) as Hlatest
    by (intros l0; apply (CloudInvP.latest_in_hist _ _ l0 HI)).
  destruct c; cbn in Hq; try discriminate; try injection Hq as <-.
  - (* A0: read latest *)
    apply Same. destruct Hok as [Hf Hn]. cbn.
    destruct (o_latest (c_store s)) as [l0|] eqn:El; [destruct (N.eqb_spec l0 p) as [->|Hne]|]; cbn; auto.
    + split; [exact Hf|]. split; [exact Hn|]. intros l1 [= <-]. auto.
    + split; [exact Hf|]. split; [exact Hn|]. intros l1 [=].
  - (* A1: put the object *)
    destruct Hok as (Hf & Hn & Hl). cbn [ostore_step fst snd ghost_after plan_snapshot]. rewrite view_after_vers.
    split; [apply Core_put; assumption|]. split; [apply (Others _ c (moved_put _ _ _ _ _) ND), Mine; reflexivity|].
    cbn. split; [exact Hf|]. split; [|split; [left; apply lookup_insert_is_Some; auto|exact Hl]].
    intros p' [[= ->]|[_ [y Hy]]]%lookup_insert_is_Some; [reflexivity|]. rewrite Hn in Hy. discriminate.
  - (* A2: the swap *)
    cbn [ostore_step ghost_after plan_snapshot]. pose proof Hok as (Hf & Hu & He & Hl). pose proof Hf as (F1 & F2 & F3 & F4 & F5).
    case_bool_decide as Eb; cbn [fst snd]; [|apply Same; cbn; auto].
    assert (view_after s {| o_latest := Some c; o_vers := o_vers (c_store s); o_snaps := o_snaps (c_store s) |}
              (c_cut s, c_best s) = cas_view (view s) c) as ->.
    { unfold view_after, hist_after. cbn. rewrite bool_decide_eq_false_2; [reflexivity|].
      intros Heq. apply F3, Hlatest. symmetry. exact Heq. }
    assert (Core (cas_view (view s) c)) as HC' by (apply (Core_cas (view s) p c pl l); auto).
    split; [exact HC'|]. split; [apply (Others _ c (moved_cas _ _) (Core_nodup _ HC')), Mine; reflexivity|].
    cbn. apply elem_of_app. right. apply elem_of_list_singleton. reflexivity.
  - (* A3: withdraw the object *)
    destruct Hok as (_ & F2 & _). cbn [ostore_step fst snd ghost_after plan_snapshot]. rewrite view_after_vers.
    split; [apply Core_del; auto|]. split; [apply (Others _ c (moved_del _ _ _) ND), Mine; reflexivity|exact I].
  - (* A4: report the latest *)
    apply Same. exact I.
  - (* A5: snapshot urgency *)
    apply Same. exact I.
  - (* G0: list the children *)
    destruct (ver_page rank pagesz now (c_store s) (Some p) after) as (l & more & -> & Hpage).
    apply Same. cbn [fst cl_resume].
    assert (Forall (fun c => (0 < c)%N) (acc ++ map (fun x : N * N * N => x.1.2) l)) as Hacc.
    { apply Forall_app. split; [exact Hok|]. apply Forall_fmap, Forall_forall. intros [[xp xc] xt] Hx.
      destruct (Hpage _ Hx) as [[pl Hpl] _]. apply (I7 _ _ _ Hpl). }
    destruct more; [exact Hacc|]. destruct (acc ++ _) eqn:Ea; [exact I|exact Hacc].
  - (* G1: is the latest one of them? *)
    apply Same. cbn [ostore_step fst cl_resume].
    pose proof (next_scan_ok (view s) p children None Hok) as Hscan.
    destruct (o_latest (c_store s)) as [l0|] eqn:El; [case_bool_decide|]; try (apply Hscan; discriminate).
    cbn. auto.
  - (* G2: does this child have children? *)
    destruct (ver_page rank pagesz now (c_store s) (Some cur) after) as (l & more & -> & Hpage).
    apply Same. cbn [fst cl_resume].
    destruct Hok as (Ht & Hcur & Hne & Hbest).
    set (ne' := nonempty || match l with [] => false | _ => true end).
    (* the idea of get-child-version: a candidate with a child is on the chain, since every
       object hangs below the nil version or a version that has been latest ([CloudInvP.ci_vers]) *)
    assert (ne' = true -> cur ∈ c_hist s) as Hne'.
    { intros [Hor|Hor]%orb_true_iff; [auto|]. destruct l as [|[[xp xc] xt] l']; [discriminate|].
      destruct (Hpage (xp, xc, xt)) as [[pl Hpl] Hp]; [left|]. cbn in Hp, Hpl. rewrite (Hp cur eq_refl) in Hpl.
      destruct (I7 _ _ _ Hpl) as (_ & _ & [H0|Hin] & _); [lia|exact Hin]. }
    destruct more; [cbn; auto|]. apply next_scan_ok; [exact Ht|].
    intros b. destruct ne'; [intros [= <-]; auto|apply Hbest].
  - (* G3: fetch the version *)
    apply Same. cbn [ostore_step fst cl_resume].
    destruct (o_vers (c_store s) !! (p, c)) as [[pl t]|]; exact I.
  - (* S0: store a snapshot *)
    cbn [ostore_step fst snd ghost_after plan_snapshot]. rewrite view_after_snaps.
    split; [apply Core_putsnap; exact HC|]. split; [exact (Others _ _ (moved_putsnap _ _ _ _) ND Hnext)|exact I].
  - (* T0, T1: get-snapshot *)
    destruct (snap_page rank pagesz now (c_store s) None) as (l & more & -> & _).
    apply Same. destruct l; exact I.
  - apply Same. cbn. destruct (o_snaps (c_store s) !! v); exact I.
  - (* K0: read latest *)
    apply Same. cbn. split; [exact Hlatest|constructor].
  - (* K1: list the versions *)
    destruct (ver_page rank pagesz now (c_store s) None after) as (pg & more & -> & Hpage).
    apply Same. cbn [fst cl_resume]. destruct Hok as [Hl Hacc].
    assert (Forall (listed (view s)) (acc ++ pg)) as Hacc'.
    { apply Forall_app. split; [exact Hacc|]. apply Forall_forall. intros [[xp xc] xt] Hx.
      destruct (Hpage _ Hx) as [[pl Hpl] _]. destruct (I7 _ _ _ Hpl) as (_ & _ & _ & Hs). eexists. exact Hs. }
    destruct more; [split; assumption|]. apply after_k2_ok; [exact Hl|exact Hacc'|].
    apply Forall_forall. intros d. apply losers_are_losers; assumption.
  - (* K2: delete a race loser, whose owner may be one of the others *)
    destruct dels as [|[dp dc] dels]; [discriminate|]. injection Hq as <-.
    cbn [ostore_step fst snd ghost_after plan_snapshot]. rewrite view_after_vers.
    destruct Hok as (Hl & Hvers & Hdels). inversion Hdels as [|? ? Hd Hdels']; subst.
    split; [apply Core_del; [exact HC|left; apply (loser_not_on_chain (view s) (dp, dc) HC Hd)]|].
    split; [|apply after_k2_ok; assumption].
    intros j cj _ Hj. destruct (decide (owned cj = Some dc)) as [Ho|Ho].
    + apply client_ok_loser_deleted; eauto.
    + eapply client_ok_moved; [exact ND|apply moved_del|exact Ho|apply (Hcl _ _ Hj)].
  - (* K3: list the snapshots, then plan *)
    destruct (snap_page rank pagesz now (c_store s) after) as (pg & more & -> & Hpg). cbn [fst snd].
    destruct more.
    + apply Same. destruct Hok as (Hl & Hvers & Hacc). cbn.
      split; [exact Hl|]. split; [exact Hvers|]. apply Forall_app. split; [exact Hacc|]. eapply Forall_impl; [exact Hpg|]. auto.
    + destruct (plan_step rank threshold (view s) l vers acc after pg HC Hok Hpg) as (HC' & HM & HK).
      rewrite view_after_same.
      split; [exact HC'|]. split; [exact (Others _ _ HM (Core_nodup _ HC') Hnext)|apply kpost_post, HK].
  - (* K4: delete a snapshot *)
    destruct dels as [|d ds]; [discriminate|]. injection Hq as <-.
    cbn [ostore_step fst snd ghost_after plan_snapshot]. rewrite view_after_snaps.
    destruct Hok as [Hs Hv]. inversion Hs as [|? ? Hd Hs']; subst.
    split; [apply Core_delsnap; assumption|].
    split; [exact (Others _ _ (moved_delsnap _ _ _ Hd) ND Hnext)|apply kpost_post, after_k4_ok; assumption].
  - (* K5: delete an old version *)
    destruct vdels as [|[dp dc] ds]; [discriminate|]. injection Hq as <-.
    cbn [ostore_step fst snd ghost_after plan_snapshot]. rewrite view_after_vers.
    inversion Hok as [|? ? Hd Hds]; subst.
    split; [apply Core_del; [exact HC|right; exact Hd]|]. split; [|apply kpost_post, after_k5_ok; exact Hds].
    apply (Others _ dc (moved_del _ _ _) ND). intros j cj _ Hj Ho.
    destruct Hd as (k & pl & Hk & _). exact (proj2 (owned_fresh _ _ _ (Hcl _ _ Hj) Ho) (elem_of_list_lookup_2 _ _ _ Hk)).
Qed.

(** client [i] has moved and goes on as [oc] or is gone *)
Lemma CInv_update s s' i oc :
  c_clients s' = partial_alter (fun _ => oc) i (c_clients s) -> CInv s -> Core (view s') ->
  (forall j cj, j <> i -> c_clients s !! j = Some cj -> client_ok (view s') cj) ->
  (forall c', oc = Some c' -> client_ok (view s') c' /\ forall y, owned c' = Some y -> strangers owned (c_clients s) i y) ->
  CInv s'.
Proof.
  intros Ecl (_ & Hcl & Hown) HC' Hothers Hoc. split; [exact HC'|]. rewrite Ecl.
  exact (clients_update owned (client_ok (view s')) (c_clients s) i oc Hown Hothers Hoc).
Qed.

Lemma CInv_init : CInv csys0.
Proof.
  split; [apply Core_split; split; [split|repeat split]; cbn; try done; try lia|split].
  - constructor.
  - intros c []%elem_of_nil.
  - intros i c [=].
  - intros i j c c' x _ [=].
Qed.

Theorem CInv_step s e : CInv s -> CInv (cstep' s e).
Proof.
  intros Hinv. pose proof Hinv as (HC & Hcl & Hown).
  pose proof HC as [HI _]%Core_split. pose proof (Core_nodup _ HC) as ND.
  assert (forall i c, client_ok (view s) c -> owned c = None ->
            CInv match c_clients s !! i with None => with_clients s (<[i := c]> (c_clients s)) | Some _ => s end) as Hstart.
  { intros i c Hok Ho. destruct (c_clients s !! i) eqn:Hi; [exact Hinv|].
    apply (CInv_update s _ i (Some c)); [reflexivity|exact Hinv|exact HC|intros j cj _; apply Hcl|].
    intros c' [= <-]. split; [exact Hok|]. intros y. rewrite Ho. discriminate. }
  destruct e as [i p pl|i p|i v pl|i|i|i now|i|i now]; cbn [cstep].
  - (* a new add-version call takes the next id *)
    destruct (c_clients s !! i) eqn:Hi; [exact Hinv|]. case_bool_decide as Ep; [|exact Hinv].
    apply (CInv_update s _ i (Some (A0 p (c_next s) pl))); [reflexivity|exact Hinv|exact (Core_start (view s) p pl HC)| |].
    + intros j cj Hne Hj. eapply (client_ok_moved (view s)); [exact ND|exact (moved_start _ p pl (c_next s) HC)|exact (strangers_next s i Hinv j cj Hne Hj)|exact (Hcl _ _ Hj)].
    + intros c' [= <-]. split; [|intros y [= <-]; apply strangers_next, Hinv].
      exact (CloudInvP.fresh_id_start _ (base (view s)) p pl HI Ep).
  - apply Hstart; [constructor|reflexivity].
  - apply Hstart; [exact I|reflexivity].
  - apply Hstart; [exact I|reflexivity].
  - apply Hstart; [exact I|reflexivity].
  - destruct (c_clients s !! i) as [c|] eqn:Hi; [|exact Hinv].
    destruct (cl_next c) as [q|r0] eqn:Hq; [|exact Hinv].
    pose proof (step_client s i now c q Hinv Hi Hq) as (HC' & Hoth & Hpost).
    destruct (ostore_step rank pagesz now (c_store s) q) as [r st'] eqn:Er. cbn [fst snd] in *.
    set (c' := cl_resume rank threshold c r) in *.
    apply (CInv_update s _ i (match c' with CDone _ => None | _ => Some c' end));
      [destruct c'; reflexivity|exact Hinv|exact HC'|exact Hoth|].
    intros c0 Hc0. assert (c0 = c' /\ client_ok (view_after s st' (ghost_after (c_hist s) (c_cut s) (c_best s) c r)) c0) as [-> Hp]
      by (destruct c'; inversion Hc0; auto).
    split; [exact Hp|]. intros y Hy%(CloudInvP.resume_owned rank threshold c r y).
    exact (strangers_mine owned _ i c y Hown Hi Hy).
  - apply (CInv_update s _ i None); [reflexivity|exact Hinv|exact HC|intros j cj _; apply Hcl|intros c' [=]].
  - (* request performed, reply lost, client gone *)
    destruct (c_clients s !! i) as [c|] eqn:Hi; [|exact Hinv].
    destruct (cl_next c) as [q|r0] eqn:Hq; [|exact Hinv].
    pose proof (step_client s i now c q Hinv Hi Hq) as Hst. cbn zeta in Hst.
    destruct (ostore_step rank pagesz now (c_store s) q) as [r st'] eqn:Er. cbn [fst snd] in Hst.
    assert (Core (view_after s st' (c_cut s, c_best s))
            /\ forall j cj, j <> i -> c_clients s !! j = Some cj -> client_ok (view_after s st' (c_cut s, c_best s)) cj)
      as [HC' Hoth].
    { destruct (plan_snapshot c r) as [s0|] eqn:Eps; [|unfold ghost_after in Hst; rewrite Eps in Hst; tauto].
      (* a cleanup that was about to plan: its request only read *)
      destruct c; try discriminate. injection Hq as <-. injection Er as _ <-.
      rewrite view_after_same. split; [exact HC|intros j cj _; apply Hcl]. }
    apply (CInv_update s _ i None); [reflexivity|exact Hinv|exact HC'|exact Hoth|intros c' [=]].
Qed.

(** The invariant holds in every state reachable by any schedule of any number
    of clients and cleanups, with any failures. *)
Theorem CInv_run (evs : list cev) : CInv (fold_left cstep' evs csys0).
Proof.
  generalize CInv_init. generalize csys0. induction evs as [|e evs IH]; intros s Hs; [exact Hs|].
  apply IH, CInv_step, Hs.
Qed.

(** Every version of the chain from position [c_cut] onward is still stored, as
    the child of its predecessor: whatever cleanups have run, however they
    interleaved with everything else and wherever they stopped. *)
Theorem retained_versions evs k c :
  let s := run evs in
  c_hist s !! k = Some c -> (c_cut s <= k)%nat ->
  exists p pl, c_sub s !! c = Some (p, pl) /\ is_Some (o_vers (c_store s) !! (p, c))
               /\ (forall k', k = S k' -> c_hist s !! k' = Some p) /\ (k = 0%nat -> p = 0%N).
Proof.
  cbn zeta. intros Hk Hc. pose proof (CInv_run evs) as ([HI _]%Core_split & _).
  destruct (CloudInvP.ci_chain _ _ HI k c Hk) as (p & pl & H1 & [H2 H3] & H4). exists p, pl. auto.
Qed.

(** Versions are only ever cut off behind a snapshot that is still stored: if
    any chain version has been planned for deletion, then the snapshot of the
    chain version [c_best] is in the store and every version after it is kept. *)
Theorem cut_is_behind_a_stored_snapshot evs :
  let s := run evs in
  (0 < c_cut s)%nat ->
  exists b kb, c_best s = Some b /\ b ∈ dom (o_snaps (c_store s)) /\ c_hist s !! kb = Some b
               /\ (c_cut s <= S kb)%nat.
Proof.
  cbn zeta. intros Hc. pose proof (CInv_run evs) as ([_ (_ & R2 & R3)]%Core_split & _).
  destruct (R3 Hc) as (b & kb & H1 & H2 & H3). exists b, kb. destruct (R2 b H1). auto.
Qed.

(** so a fresh replica can reconstruct the latest state: from that snapshot and
    the versions after it, or from the very first version when nothing has been cut *)
Corollary chain_reconstructible evs :
  let s := run evs in
  (c_cut s = 0%nat /\ forall k c, c_hist s !! k = Some c -> exists p pl, c_sub s !! c = Some (p, pl) /\ is_Some (o_vers (c_store s) !! (p, c)))
  \/ exists b kb, b ∈ dom (o_snaps (c_store s)) /\ c_hist s !! kb = Some b
       /\ forall k c, (kb < k)%nat -> c_hist s !! k = Some c ->
            exists p pl, c_sub s !! c = Some (p, pl) /\ is_Some (o_vers (c_store s) !! (p, c)).
Proof.
  cbn zeta. destruct (c_cut (run evs)) as [|cu] eqn:Ec.
  - left. split; [reflexivity|]. intros k c Hk.
    destruct (retained_versions evs k c Hk) as (p & pl & H1 & H2 & _); [lia|]. eauto.
  - right. destruct (cut_is_behind_a_stored_snapshot evs) as (b & kb & _ & Hd & Hkb & Hle); [lia|].
    exists b, kb. split; [exact Hd|]. split; [exact Hkb|]. intros k c Hlt Hk.
    destruct (retained_versions evs k c Hk) as (p & pl & H1 & H2 & _); [lia|]. eauto.
Qed.

(** a replica whose base version is the retained snapshot's version or a later
    one finds the next version: it can still synchronise *)
Corollary retained_base_finds_child evs k c c' :
  let s := run evs in
  c_hist s !! k = Some c -> c_hist s !! S k = Some c' -> (c_cut s <= S k)%nat ->
  exists pl t, o_vers (c_store s) !! (c, c') = Some (pl, t) /\ c_sub s !! c' = Some (c, pl).
Proof.
  cbn zeta. intros Hk Hk' Hc.
  destruct (retained_versions evs (S k) c' Hk' Hc) as (p & pl & H1 & [[pl' t] H2] & H3 & _).
  specialize (H3 k eq_refl). rewrite Hk in H3. injection H3 as <-.
  pose proof (CInv_run evs) as ([HI _]%Core_split & _).
  destruct (CloudInvP.ci_vers _ _ HI _ _ _ H2) as (_ & _ & _ & H4). exists pl', t. auto.
Qed.

Lemma hist_after_prefix st st' h : h `prefix_of` hist_after st st' h.
Proof. exact (CloudInvP.hist_after_prefix st st' h). Qed.
End Run.

(** the premises are met: three versions, a snapshot of the second, a cleanup
    that removes the first two as old; the third stays, behind the stored snapshot *)
Example cleanup_example :
  let evs := [VStartAdd 0 0 7; VStep 0 1; VStep 0 1; VStep 0 1; VStep 0 1;
              VStartAdd 0 1 8; VStep 0 1; VStep 0 1; VStep 0 1; VStep 0 1;
              VStartAddSnap 0 2 55; VStep 0 1;
              VStartAdd 0 2 9; VStep 0 20; VStep 0 20; VStep 0 20; VStep 0 20;
              VStartCleanup 1; VStep 1 30; VStep 1 30; VStep 1 30; VStep 1 30; VStep 1 30; VStep 1 30] in
  let s := fold_left (cstep (fun x => x) 5 10) evs csys0 in
  (c_hist s, c_cut s, c_best s, map fst (map_to_list (o_vers (c_store s))), map fst (map_to_list (o_snaps (c_store s))),
   map_to_list (c_clients s))
  = ([1; 2; 3]%N, 2%nat, Some 2%N, [(2, 3)]%N, [2%N], []).
Proof. vm_compute. reflexivity. Qed.
