(** The write-back of a working-set rebuild through [set_working_set_item] and
    [add_to_working_set] produces [rebuild_spec_ws], for every store whose
    working set is in the storage's normal form (C15, [rebuild_writes_spec]). *)
From TC Require Import Model.TaskDb Proofs.StorageP Proofs.WorkingSetP.

Definition ends_some (l : list (option N)) : Prop := exists u, last l = Some (Some u).

(** the storage's normal form of a working set: position 0 blank, no trailing blank *)
Definition ws_normal (w : list (option N)) : Prop :=
  exists tl, w = None :: tl /\ (tl = [] \/ ends_some tl).

Lemma ws_normal_strip w :
  ws_normal w <-> exists tl, w = None :: tl /\ strip_trailing_none tl = tl.
Proof.
  split; intros (tl & -> & H); exists tl; (split; [reflexivity|]).
  - destruct H as [->|[u Hu]]; [reflexivity|exact (strip_ends_some _ u Hu)].
  - rewrite <- H. apply strip_normal.
Qed.

Lemma strip_idem (l : list (option N)) : strip_trailing_none (strip_trailing_none l) = strip_trailing_none l.
Proof.
  destruct (strip_decompose l) as (s & k & -> & Hs). rewrite Hs. rewrite strip_app_nones in Hs. exact Hs.
Qed.

(** While the rebuild writes back, the stored vector is [None :: strip v] for
    the list [v] of the entries written so far followed by the old entries not
    yet visited.  Setting the entry after the written ones succeeds whenever
    some old entry from there on holds a task: the position is then inside the
    normal form. *)
Lemma set_item_next s pre o rest x j u :
  st_ws s = None :: strip_trailing_none (pre ++ o :: rest) -> (o :: rest) !! j = Some (Some u) ->
  set_working_set_item s (S (length pre)) x
  = Some (set_ws s (None :: strip_trailing_none ((pre ++ [x]) ++ rest))).
Proof.
  intros Hw Hj.
  assert (length pre < length (strip_trailing_none (pre ++ o :: rest)))%nat as Hlt.
  { apply Nat.le_lt_trans with (length pre + j)%nat; [lia|].
    eapply lookup_lt_Some, strip_lookup_some. rewrite lookup_app_r by lia. rewrite <- Hj. f_equal. lia. }
  unfold set_working_set_item. rewrite Hw.
  destruct (Nat.ltb_spec (S (length pre)) (length (None :: strip_trailing_none (pre ++ o :: rest))))
    as [_|Hge]; [|cbn [length] in Hge; lia].
  cbn [insert list_insert normalize_ws]. rewrite strip_insert by exact Hlt.
  rewrite insert_app_r_alt, Nat.sub_diag, <- app_assoc by lia. reflexivity.
Qed.

Lemma write_zip_spec : forall old new s pre,
  st_ws s = None :: strip_trailing_none (pre ++ old) -> strip_trailing_none old = old ->
  write_zip s (S (length pre)) old new
  = Some (set_ws s (None :: strip_trailing_none (pre ++ take (length old) new ++ drop (length new) old))).
Proof.
  induction old as [|o old IH]; intros new s pre Hw Hn.
  - rewrite app_nil_r in Hw. cbn. rewrite drop_nil, take_0, !app_nil_r, <- Hw, set_ws_id. reflexivity.
  - destruct new as [|n new]; [cbn; rewrite <- Hw, set_ws_id; reflexivity|].
    cbn [write_zip length firstn skipn].
    pose proof (strip_fixpoint_tail _ _ Hn) as Hn'.
    destruct (bool_decide_reflect (o = n)) as [->|_].
    + rewrite <- (last_length pre n), IH by (rewrite <- ?app_assoc; assumption).
      rewrite <- app_assoc. reflexivity.
    + (* [old] is in normal form and not empty: its last entry is a task *)
      destruct (strip_normal (o :: old)) as [E|[u Hu]]; rewrite Hn in *; [discriminate|].
      rewrite last_lookup in Hu.
      rewrite (set_item_next s pre o old n _ u Hw Hu), <- (last_length pre n), IH by auto.
      rewrite <- !app_assoc. reflexivity.
Qed.

Lemma blank_rest_spec : forall rest s pre,
  st_ws s = None :: strip_trailing_none (pre ++ rest) ->
  blank_rest s (S (length pre)) rest
  = Some (set_ws s (None :: strip_trailing_none (pre ++ replicate (length rest) None))).
Proof.
  induction rest as [|[u|] rest IH]; intros s pre Hw; cbn [blank_rest length replicate].
  - rewrite <- Hw, set_ws_id. reflexivity.
  - rewrite (set_item_next s pre (Some u) rest None 0 u Hw eq_refl).
    rewrite <- (last_length pre None), IH, <- !app_assoc by reflexivity. reflexivity.
  - rewrite <- (last_length pre None), IH, <- app_assoc by (rewrite <- app_assoc; exact Hw). reflexivity.
Qed.

Lemma append_rest_spec : forall news s,
  Forall is_Some news -> append_rest s news = Some (set_ws s (st_ws s ++ news)).
Proof.
  induction news as [|x news IH]; intros s HF; cbn [append_rest].
  - rewrite app_nil_r, set_ws_id. reflexivity.
  - apply Forall_cons in HF as [[u ->] HF]. rewrite IH by exact HF. cbn. rewrite <- app_assoc. reflexivity.
Qed.

Section Rebuild.
Variable in_ws : gmap N N -> bool.

Lemma rebuild_with_spec all s renumber :
  ws_normal (st_ws s) ->
  rebuild_with in_ws all s renumber = Some (set_ws s (rebuild_spec_ws in_ws all s renumber)).
Proof.
  intros (told & Hold & Hn)%ws_normal_strip. unfold rebuild_with, rebuild_spec_ws. rewrite Hold. cbn [tail].
  set (kept := scan_old in_ws s renumber told). set (nc := newcomers in_ws s kept all).
  pose proof (newcomers_all_some in_ws s kept all) as Hnc.
  (* the first step of the zip compares the two blanks at position 0 and writes nothing *)
  change (write_zip s 0 (None :: told) (None :: kept ++ nc))
    with (write_zip s (S (length (@nil (option N)))) told (kept ++ nc)).
  rewrite (write_zip_spec told (kept ++ nc) s []) by (cbn [app]; congruence).
  cbn [app length normalize_ws skipn].
  (* without renumbering no entry is dropped; with it no blank is written *)
  assert (length kept = length told \/ Forall is_Some kept) as [Hk|Hk].
  { destruct renumber; [right; apply scan_renumber_all_some|left].
    unfold kept. rewrite scan_stable. apply map_length. }
  - destruct (Nat.ltb_spec (S (length (kept ++ nc))) (S (length told))) as [Hlt|_];
      [rewrite app_length in Hlt; lia|].
    rewrite <- Hk, take_app, drop_app, drop_ge, app_nil_r by (rewrite app_length; lia).
    rewrite append_rest_spec by exact Hnc. reflexivity.
  - assert (Forall is_Some (kept ++ nc)) as Hkn by (apply Forall_app; auto).
    rewrite (strip_all_some kept) by exact Hk.
    destruct (Nat.ltb_spec (S (length (kept ++ nc))) (S (length told))) as [Hlt|Hge].
    + rewrite take_ge by lia. rewrite (blank_rest_spec _ _ (kept ++ nc)) by reflexivity.
      rewrite strip_app_nones, (strip_all_some (kept ++ nc)) by exact Hkn. reflexivity.
    + rewrite drop_ge, app_nil_r by lia. rewrite append_rest_spec by (apply Forall_drop, Hkn).
      rewrite (strip_all_some (take _ _)) by (apply Forall_take, Hkn).
      cbn [st_ws set_ws app]. rewrite take_drop. reflexivity.
Qed.

Theorem rebuild_writes_spec all s renumber :
  ws_normal (st_ws s) ->
  exists s', rebuild_with in_ws all s renumber = Some s'
    /\ st_ws s' = rebuild_spec_ws in_ws all s renumber
    /\ st_tasks s' = st_tasks s /\ st_base s' = st_base s /\ st_ops s' = st_ops s.
Proof. intros Hn. eexists. split; [apply rebuild_with_spec, Hn|]. repeat split. Qed.
End Rebuild.

Lemma ws_normal_app_somes w l : ws_normal w -> Forall is_Some l -> ws_normal (w ++ l).
Proof.
  intros (tl & -> & Hn)%ws_normal_strip HF. apply ws_normal_strip.
  eexists. split; [reflexivity|apply strip_app_somes; assumption].
Qed.

Lemma rebuild_spec_normal (in_ws : gmap N N -> bool) all s renumber :
  ws_normal (rebuild_spec_ws in_ws all s renumber).
Proof.
  apply ws_normal_app_somes; [|apply newcomers_all_some].
  apply ws_normal_strip. eexists. split; [reflexivity|apply strip_idem].
Qed.
