(** What goes over the wire.  Operations and versions: the reader reads back
    what the writer writes and accepts any field order (C14).  Snapshots, as
    steps of the sync machine: one that is uploaded or stored is
    the chain state of its version, and one is installed only into a replica
    that is empty (C12). *)
From TC Require Import Model.Sync Model.Json Proofs.SyncP.

Lemma str_eqb_eq a b : str_eqb a b = true <-> a = b.
Proof.
  revert b; induction a as [|x a IH]; intros [|y b]; cbn; split; try congruence.
  - intros H. apply andb_true_iff in H. destruct H as [H1 H2]. apply N.eqb_eq in H1. apply IH in H2. congruence.
  - intros H. inv H. rewrite N.eqb_refl. cbn. apply IH. reflexivity.
Qed.

Section Codec.
Variable enc_uuid : N -> list N.
Variable dec_uuid : list N -> option N.
Variable enc_str : N -> list N.
Variable dec_str : list N -> option N.
Variable enc_ts : Z -> list N.
Variable dec_ts : list N -> option Z.
Hypothesis uuid_rt : forall u, dec_uuid (enc_uuid u) = Some u.
Hypothesis str_rt : forall s, dec_str (enc_str s) = Some s.
Hypothesis ts_rt : forall t, dec_ts (enc_ts t) = Some t.

Notation to_json := (op_to_json enc_uuid enc_str enc_ts).
Notation of_json := (op_of_json dec_uuid dec_str dec_ts).

Lemma from_to o : of_json (to_json o) = Some o.
Proof.
  (* the keys are literals, so finding the fields is a computation; what it
     leaves is each decoder applied to the output of its encoder *)
  destruct o as [u|u|u p [v|] t]; vm_compute; rewrite uuid_rt, ?str_rt, ?ts_rt; reflexivity.
Qed.

Lemma version_from_to ops :
  version_of_json dec_uuid dec_str dec_ts (version_to_json enc_uuid enc_str enc_ts ops) = Some ops.
Proof.
  unfold version_of_json, version_to_json.
  change (field _ _) with (Some (JArr (map to_json ops))).
  induction ops as [|o ops IH]; [reflexivity|].
  cbn [map mapM]. rewrite from_to. cbn [mbind option_bind]. rewrite IH. reflexivity.
Qed.

Lemma field_perm k l l' :
  NoDup l.*1 -> l ≡ₚ l' -> field k l = field k l'.
Proof.
  intros Hnd Hp. induction Hp as [|[k0 v0] l l' Hp IH|[k1 v1] [k2 v2] l|l l' l'' Hp1 IH1 Hp2 IH2].
  - reflexivity.
  - cbn. inv Hnd. rewrite IH by assumption. reflexivity.
  - cbn. inv Hnd. destruct (str_eqb k2 k) eqn:E2, (str_eqb k1 k) eqn:E1; try reflexivity.
    apply str_eqb_eq in E1, E2. subst. exfalso. apply H1. left.
  - rewrite IH1 by assumption. apply IH2. rewrite <- Hp1. exact Hnd.
Qed.

Theorem reader_order_insensitive k body body' :
  NoDup body.*1 -> body ≡ₚ body' ->
  of_json (JObj [(k, JObj body)]) = of_json (JObj [(k, JObj body')]).
Proof.
  intros Hnd Hp. cbn.
  rewrite !(field_perm _ body body' Hnd Hp). reflexivity.
Qed.
End Codec.

Section WithBatching.
Variable sz : sop -> N.
Variable limit : N.

Lemma snapshot_request_is_chain_state c x v d :
  sst_inv c x -> sync_next sz limit x = inl (RAddSnapshot v d) ->
  v = x_base x /\ d = cstate c v.
Proof.
  intros (B1 & B2 & B3 & B4) H. unfold sync_next in H. destruct (x_pc x) eqn:E; inv H.
  split; [reflexivity|]. rewrite B3, (B4 (or_introl eq_refl)). reflexivity.
Qed.

Lemma stored_snapshot_is_chain_state s v d :
  Inv s -> snap (srv s) = Some (v, d) ->
  (v <= length (chain (srv s)))%nat /\ d = cstate (chain (srv s)) v.
Proof. intros [[_ Hs] _] E. rewrite E in Hs. exact Hs. Qed.

Lemma snapshot_gate x p :
  x_pc (sync_resume sz limit x p) = AtSnapUp <->
  exists v g, x_pc x = AtPush /\ p = PAddOk v g
    /\ drop (length (take_batch sz limit (x_local x))) (x_local x) = []
    /\ urg_geb g (if x_avoid x then UHigh else ULow) = true.
Proof.
  unfold sync_resume. split.
  - destruct (x_pc x) eqn:Epc; destruct p as [[[v d]|]|v ops|  |v g|v g| ]; cbn; try discriminate.
    + destruct (rebase transform ops (x_local x)); cbn; discriminate.
    + destruct (x_local x); cbn; discriminate.
    + destruct (drop _ _) eqn:Ed; [|discriminate].
      destruct (urg_geb g _) eqn:Eg; [|discriminate]. intros _. exists v, g. auto.
    + destruct (x_req x) as [q|]; [destruct (q =? v)%nat|]; cbn; discriminate.
  - intros (v & g & Epc & -> & Ed & Eg). rewrite Epc. cbn. rewrite Ed, Eg. reflexivity.
Qed.

Lemma nonempty_starts_pulling r avoid wst :
  rep_is_empty r wst = false -> x_pc (start_sync r avoid wst) = AtPull.
Proof. intros H. unfold start_sync; cbn. rewrite H. reflexivity. Qed.

(** What a step of the sync does to the tasks: a snapshot is installed, a pulled
    version is applied, rebased over the local operations; nothing else
    touches them. *)
Lemma sync_resume_tasks x p :
  x_tasks (sync_resume sz limit x p) =
  match x_pc x, p with
  | AtSnap, PSnapshot (Some (_, d)) => d
  | AtPull, PVersion _ ops => applyl (x_tasks x) (rebase transform ops (x_local x)).1
  | _, _ => x_tasks x
  end.
Proof.
  unfold sync_resume.
  destruct (x_pc x); destruct p as [[[v d]|]|v ops|  |v g|v g| ]; cbn; try reflexivity.
  - destruct (rebase transform ops (x_local x)). reflexivity.
  - destruct (x_local x); reflexivity.
  - destruct (x_req x) as [q|]; [destruct (q =? v)%nat|]; reflexivity.
Qed.

(** no step leads back to the snapshot step *)
Lemma sync_resume_not_back x p : x_pc (sync_resume sz limit x p) <> AtSnap.
Proof. intros E. pose proof (sync_resume_at sz limit x p) as A. rewrite E in A. exact A. Qed.

Lemma never_replaced x p :
  x_pc x <> AtSnap ->
  x_pc (sync_resume sz limit x p) <> AtSnap
  /\ exists l, x_tasks (sync_resume sz limit x p) = applyl (x_tasks x) l.
Proof.
  intros Hpc. split; [apply sync_resume_not_back|]. rewrite sync_resume_tasks.
  destruct (x_pc x); [congruence|..]; destruct p as [[[v d]|]|v ops|  |v g|v g| ];
    first [exists []; reflexivity|eexists; reflexivity].
Qed.

Lemma empty_replica r wst :
  rep_is_empty r wst = true -> r_tasks r = ∅ /\ r_pend r = [] /\ r_base r = 0 /\ wst = true.
Proof.
  unfold rep_is_empty.
  intros [[[H1%bool_decide_eq_true H2]%andb_true_iff H3%Nat.eqb_eq]%andb_true_iff H4]%andb_true_iff.
  destruct (r_pend r); [auto|discriminate].
Qed.
End WithBatching.
