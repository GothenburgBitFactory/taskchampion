(** The conflict table of [transform], what a rebase keeps, symmetry of the
    transformation grid, independence of the order in which two replicas
    synchronise, and a later write of a property overriding an earlier one
    whatever the timestamps (C03). *)
From TC Require Import Model.Rebase Proofs.TransformP Proofs.RebaseP.

Lemma ov_ltb_irrefl v : ov_ltb v v = false.
Proof. destruct v; cbn; [apply N.ltb_irrefl|reflexivity]. Qed.

Definition swap_pair {A B} (p : A * B) : B * A := (p.2, p.1).

Lemma transform_symmetric a b : transform b a = swap_pair (transform a b).
Proof. rewrite !transform_spec. reflexivity. Qed.

(** the preferences stated in [SyncOp::transform] (src/server/op.rs): the
    deletion over an update of the task, the greater (timestamp, value) between
    two updates of one property *)
Definition beats (a b : sop) : bool :=
  match a, b with
  | SDelete u1, SUpdate u2 _ _ _ => N.eqb u1 u2
  | SUpdate u1 p1 v1 t1, SUpdate u2 p2 v2 t2 =>
      N.eqb u1 u2 && N.eqb p1 p2 && tv_ltb t2 v2 t1 v1
  | _, _ => false
  end.

Definition same_effect (a b : sop) : bool :=
  match a, b with
  | SCreate u1, SCreate u2 => N.eqb u1 u2
  | SDelete u1, SDelete u2 => N.eqb u1 u2
  | SUpdate u1 p1 v1 t1, SUpdate u2 p2 v2 t2 =>
      N.eqb u1 u2 && N.eqb p1 p2 && ov_eqb v1 v2 && Z.eqb t1 t2
  | _, _ => false
  end.

Lemma same_effect_sym a b : same_effect a b = same_effect b a.
Proof.
  destruct a as [u1|u1|u1 p1 v1 t1], b as [u2|u2|u2 p2 v2 t2]; cbn; try reflexivity;
    rewrite (N.eqb_sym u1), ?(N.eqb_sym p1), ?(ov_eqb_sym v1), ?(Z.eqb_sym t1); reflexivity.
Qed.

(** validity in a common state rules out the two arms of [absorbed] that the
    table does not have *)
Lemma absorbed_valid s a b :
  validb s a = true -> validb s b = true ->
  absorbed a b = same_effect a b || beats b a.
Proof.
  destruct a as [u1|u1|u1 p1 v1 t1], b as [u2|u2|u2 p2 v2 t2]; cbn; unfold tv_leb; intros Ha Hb;
    rewrite ?orb_false_r, ?(N.eqb_sym u2 u1), ?(N.eqb_sym p2 p1); try reflexivity.
  1-2: destruct (N.eqb_spec u1 u2) as [->|]; [destruct (s !! u2); discriminate|reflexivity].
  destruct (N.eqb u1 u2 && N.eqb p1 p2), (ov_eqb v1 v2), (Z.eqb t1 t2); reflexivity.
Qed.

Lemma transform_table s a b :
  validb s a = true -> validb s b = true ->
  transform a b =
  (if same_effect a b || beats b a then None else Some a,
   if same_effect a b || beats a b then None else Some b).
Proof.
  intros Ha Hb.
  rewrite transform_spec, (absorbed_valid s a b), (absorbed_valid s b a), (same_effect_sym b a);
    auto.
Qed.

Lemma In_consopt (lo : sop) o l : In lo l -> In lo (consopt o l).
Proof. intros H. destruct o; [right|]; exact H. Qed.

Lemma rebase_one_kept l : forall s so lo,
  validb s so = true -> valid_seqb s l = true ->
  In lo l -> same_effect so lo = false -> beats so lo = false ->
  In lo (rebase_one' (Some so) l).2.
Proof.
  induction l as [|x l IH]; intros s so lo Hso Hl Hin HS HB; [destruct Hin|].
  cbn [valid_seqb] in Hl. apply andb_true_iff in Hl as [Hx Hl].
  pose proof (tp1 s so x Hso Hx) as T.
  rewrite rebase_one_cons. rewrite transform_spec in T |- *. destruct T as (_ & _ & T).
  destruct Hin as [<-|Hin].
  - (* the operation itself meets the server operation here *)
    rewrite (absorbed_valid s x so Hx Hso), (same_effect_sym x so), HS, HB.
    destruct (rebase_one' _ l). left. reflexivity.
  - destruct (absorbed so x).
    + rewrite rebase_one_None. apply In_consopt. exact Hin.
    + specialize (IH (apply s x) so lo T Hl Hin HS HB).
      destruct (rebase_one' (Some so) l). apply In_consopt. exact IH.
Qed.

Lemma rebase_kept v : forall l s lo,
  valid_seqb s v = true -> valid_seqb s l = true ->
  In lo l ->
  (forall so, In so v -> same_effect so lo = false /\ beats so lo = false) ->
  In lo (rebase' v l).2.
Proof.
  induction v as [|so v IH]; intros l s lo Hv Hl Hin Hno; [exact Hin|].
  cbn [valid_seqb] in Hv. apply andb_true_iff in Hv as [Hso Hv].
  destruct (Hno so (or_introl eq_refl)) as [HS HB].
  pose proof (rebase_one_kept l s so lo Hso Hl Hin HS HB) as K.
  pose proof (rebase_one_diamond l s (Some so) Hso Hl) as D.
  rewrite rebase_cons. destruct (rebase_one' (Some so) l) as [r l1]. destruct D as (_ & D & _).
  specialize (IH l1 (apply s so) lo Hv D K (fun so0 H0 => Hno so0 (or_intror H0))).
  destruct (rebase' v l1). exact IH.
Qed.

(** carrying the first local operation (if there is one) through the version first *)
Lemma rebase_column v : forall lo l,
  rebase' v (consopt lo l) =
  let '(lo', v1) := rebase_one' lo v in
  let '(v2, l') := rebase' v1 l in (v2, consopt lo' l').
Proof.
  induction v as [|so v IH]; intros [x|] l; try reflexivity.
  - cbn [consopt]. rewrite rebase_cons, !rebase_one_cons, (transform_symmetric so x).
    destruct (transform so x) as [so1 x1]. cbn [swap_pair fst snd].
    destruct (rebase_one' so1 l) as [r l1] eqn:E1. rewrite IH.
    destruct (rebase_one' x1 v) as [lo' v1]. rewrite rebase_consopt, E1.
    destruct (rebase' v1 l1). reflexivity.
  - rewrite rebase_one_None. cbn [consopt]. destruct (rebase' (so :: v) l). reflexivity.
Qed.

Lemma rebase_symmetric l : forall v,
  rebase' l v = swap_pair (rebase' v l).
Proof.
  induction l as [|lo l IH]; intros v.
  - rewrite rebase_nil_r. reflexivity.
  - rewrite rebase_cons, (rebase_column v (Some lo) l : rebase' v (lo :: l) = _).
    destruct (rebase_one' (Some lo) v) as [r v1].
    rewrite (IH v1). destruct (rebase' v1 l). reflexivity.
Qed.

Theorem order_independent_2 s la lb :
  valid_seqb s la = true -> valid_seqb s lb = true ->
  (* A first: the chain holds la, then lb rebased over la;
     B first: the chain holds lb, then la rebased over lb *)
  applyl (applyl s la) (rebase transform la lb).2
  = applyl (applyl s lb) (rebase transform lb la).2.
Proof.
  intros Ha Hb.
  pose proof (rebase_diamond la lb s Ha Hb) as D.
  rewrite (rebase_symmetric lb la).
  destruct (rebase transform la lb) as [v' l']. destruct D as (D1 & _ & _).
  symmetry. exact D1.
Qed.

(** A change made after seeing another change of the same property overrides
    it whatever the two timestamps are: in chain order the later one wins. *)
Lemma sequential_override s u p va ta vb tb :
  apply (apply s (SUpdate u p va ta)) (SUpdate u p vb tb) = apply s (SUpdate u p vb tb).
Proof.
  rewrite apply_update_update. cbn [apply].
  destruct (s !! u); [rewrite upd_task_shadow|]; reflexivity.
Qed.
