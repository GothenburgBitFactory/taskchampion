(** The working-set rebuild (C15): what the new working set contains and where
    the remaining tasks sit. *)
From TC Require Import Model.TaskDb Proofs.StorageP.

Section WithPredicate.
Variable in_ws : gmap N N -> bool.

Notation keep := (keep_entry in_ws).
Notation scan := (scan_old in_ws).

(** The working set a rebuild produces ([WriteBackP.rebuild_writes_spec]).  Only
    the kept part is normalised: writing the kept entries back goes through
    [set_working_set_item], which drops trailing blanks, and the newcomers are
    then appended, so that without renumbering a newcomer can take the number
    of a dropped last entry. *)
Definition rebuild_spec_ws (all : list (N * gmap N N)) (s : store) (renumber : bool) : list (option N) :=
  let kept := scan s renumber (tail (st_ws s)) in
  normalize_ws (None :: kept) ++ newcomers in_ws s kept all.

Definition wanted (s : store) (u : N) : Prop :=
  exists t, st_tasks s !! u = Some t /\ in_ws t = true.

Lemma keep_wanted s u : keep s (Some u) = true <-> wanted s u.
Proof.
  unfold wanted. cbn. unfold get_task. destruct (st_tasks s !! u) as [t|].
  - split; [eauto|]. intros (t' & [= <-] & H). exact H.
  - split; [discriminate|]. intros (t' & [=] & _).
Qed.

Lemma scan_stable s old : scan s false old = map (fun x => if keep s x then x else None) old.
Proof. induction old as [|x old IH]; cbn; [reflexivity|]. destruct (keep s x); rewrite IH; reflexivity. Qed.

Lemma scan_compact s old : scan s true old = filter (fun x => keep s x = true) old.
Proof.
  induction old as [|x old IH]; cbn [scan_old]; [reflexivity|].
  rewrite filter_cons. destruct (keep s x); [rewrite IH; reflexivity|exact IH].
Qed.

Lemma scan_renumber_all_some s old : Forall is_Some (scan s true old).
Proof.
  rewrite scan_compact. apply Forall_forall. intros x [Hk _]%elem_of_list_filter.
  destruct x; [eauto|discriminate].
Qed.

Lemma scan_tasks s renumber old :
  omap id (scan s renumber old) = filter (fun v => keep s (Some v) = true) (omap id old).
Proof.
  induction old as [|[v|] old IH]; cbn [scan_old]; [reflexivity| |].
  - change (omap id (Some v :: old)) with (v :: omap id old). rewrite filter_cons.
    destruct (keep s (Some v)); [cbn; rewrite IH; reflexivity|destruct renumber; exact IH].
  - destruct renumber; exact IH.
Qed.

Lemma elem_of_scan_some s renumber old u :
  Some u ∈ scan s renumber old <-> Some u ∈ old /\ keep s (Some u) = true.
Proof. rewrite <- !elem_of_omap_id, scan_tasks, elem_of_list_filter. tauto. Qed.

Lemma scan_has_kept s renumber old x :
  x ∈ old -> keep s x = true -> x ∈ scan s renumber old.
Proof. destruct x as [u|]; [|discriminate]. intros Hin Hk. apply elem_of_scan_some. auto. Qed.

Lemma newcomers_all_some s seen all : Forall is_Some (newcomers in_ws s seen all).
Proof.
  apply Forall_forall. intros x ((u & t) & _ & H)%elem_of_list_omap.
  destruct (_ && _); [|discriminate]. injection H as <-. eauto.
Qed.

Lemma elem_of_newcomers s seen all u :
  Some u ∈ newcomers in_ws s seen all <-> Some u ∉ seen /\ exists t, (u, t) ∈ all /\ in_ws t = true.
Proof.
  unfold newcomers. rewrite elem_of_list_omap. split.
  - intros ((v & t) & Hin & H). destruct (negb _ && _) eqn:E; [|discriminate]. injection H as ->.
    apply andb_true_iff in E as [E1%negb_true_iff%bool_decide_eq_false E2]. eauto.
  - intros (Hs & t & Hin & Hw). exists (u, t). split; [exact Hin|].
    rewrite Hw, bool_decide_eq_false_2 by exact Hs. reflexivity.
Qed.

Theorem ws_exact all s renumber u :
  (forall v t, (v, t) ∈ all <-> st_tasks s !! v = Some t) ->
  Some u ∈ rebuild_spec_ws all s renumber <-> wanted s u.
Proof.
  intros Hall. unfold rebuild_spec_ws. set (kept := scan s renumber (tail (st_ws s))).
  cbn [normalize_ws]. rewrite elem_of_app, elem_of_cons, elem_of_strip_some, elem_of_newcomers. split.
  - intros [[[=]|H]|(_ & t & Hin & Hw)].
    + apply elem_of_scan_some in H as [_ H]. apply keep_wanted. exact H.
    + exists t. split; [apply Hall; exact Hin|exact Hw].
  - intros (t & Ht & Hw). destruct (decide (Some u ∈ kept)) as [Hk|Hk]; [auto|].
    right. split; [exact Hk|]. exists t. split; [apply Hall; exact Ht|exact Hw].
Qed.

Lemma newcomers_nodup s seen all :
  NoDup (map fst all) -> NoDup (omap id (newcomers in_ws s seen all)).
Proof.
  induction all as [|[u t] all IH]; cbn; [constructor|]. intros [Hu ND]%NoDup_cons.
  destruct (_ && _); cbn; [|auto]. constructor; [|auto].
  intros (_ & t' & Hin & _)%elem_of_omap_id%(elem_of_newcomers s).
  apply Hu, elem_of_list_fmap. exists (u, t'). auto.
Qed.

Theorem ws_no_duplicates all s renumber :
  NoDup (omap id (st_ws s)) -> NoDup (map fst all) ->
  NoDup (omap id (rebuild_spec_ws all s renumber)).
Proof.
  intros Hold Hall. unfold rebuild_spec_ws. set (kept := scan s renumber (tail (st_ws s))).
  rewrite omap_app. cbn [normalize_ws].
  change (omap id (None :: strip_trailing_none kept)) with (omap id (strip_trailing_none kept)).
  rewrite omap_id_strip. apply NoDup_app. split; [|split; [|apply newcomers_nodup; exact Hall]].
  - unfold kept. rewrite scan_tasks. apply NoDup_filter.
    destruct (st_ws s) as [|[x|] w]; [constructor|apply NoDup_cons in Hold as [_ Hold]|]; exact Hold.
  - intros u Hu%elem_of_omap_id [Hn _]%elem_of_omap_id%elem_of_newcomers. exact (Hn Hu).
Qed.

Theorem ws_stable all s i u :
  st_ws s !! S i = Some (Some u) -> wanted s u ->
  rebuild_spec_ws all s false !! S i = Some (Some u).
Proof.
  intros Hi Hw%keep_wanted. unfold rebuild_spec_ws.
  apply lookup_app_l_Some. cbn [normalize_ws lookup list_lookup].
  apply strip_lookup_some. rewrite scan_stable, list_lookup_fmap, lookup_tail, Hi.
  cbn [fmap option_fmap option_map]. rewrite Hw. reflexivity.
Qed.

Theorem ws_newcomers_after all s renumber i :
  (length (normalize_ws (None :: scan s renumber (tail (st_ws s)))) <= i)%nat ->
  rebuild_spec_ws all s renumber !! i =
  newcomers in_ws s (scan s renumber (tail (st_ws s))) all
    !! (i - length (normalize_ws (None :: scan s renumber (tail (st_ws s)))))%nat.
Proof. intros H. unfold rebuild_spec_ws. apply lookup_app_r. exact H. Qed.

Theorem ws_compact all s :
  rebuild_spec_ws all s true =
  None :: filter (fun x => keep s x = true) (tail (st_ws s))
       ++ newcomers in_ws s (filter (fun x => keep s x = true) (tail (st_ws s))) all
  /\ (forall x, x ∈ tail (rebuild_spec_ws all s true) -> x <> None).
Proof.
  unfold rebuild_spec_ws. cbn [normalize_ws].
  pose proof (scan_renumber_all_some s (tail (st_ws s))) as Hk.
  rewrite (strip_all_some _ Hk), scan_compact in *. split; [reflexivity|].
  cbn [tail app]. intros x Hx ->. eapply is_Some_None, Forall_forall, Hx.
  apply Forall_app. split; [exact Hk|apply newcomers_all_some].
Qed.

End WithPredicate.
