(** Crash atomicity of the transaction envelope (C06). *)
From TC Require Import Model.Txn.

Section P.
Context {S C : Type}.
Variable step : S -> C -> S.
Notation trun' := (trun step).

Lemma trun_calls calls : forall t,
  trun' t (map TCall calls)
  = {| persistent := persistent t; working := fold_left step calls <$> working t |}.
Proof.
  induction calls as [|c calls IH]; intros t; cbn [map trun fold_left].
  - destruct t as [p [w|]]; reflexivity.
  - unfold trun in IH. rewrite IH. cbn. destruct (working t); reflexivity.
Qed.

(** an action arrives at its last event with the before-state stored and the
    after-state in the private copy *)
Lemma trun_action t calls finish :
  trun' t (action calls finish)
  = tstep step {| persistent := persistent t; working := Some (fold_left step calls (persistent t)) |} finish.
Proof.
  unfold action, trun. rewrite app_comm_cons, fold_left_app. cbn [fold_left]. f_equal.
  apply (trun_calls calls (tstep step t TBegin)).
Qed.

Theorem uncommitted_invisible t calls :
  persistent (trun' t (TBegin :: map TCall calls)) = persistent t.
Proof. exact (f_equal persistent (trun_calls calls (tstep step t TBegin))). Qed.

Theorem abandon_leaves_before_state t calls k :
  persistent (trun' t (action (take k calls) TAbandon)) = persistent t.
Proof. rewrite trun_action. reflexivity. Qed.

Theorem commit_installs_after_state t calls :
  persistent (trun' t (action calls TCommit)) = fold_left step calls (persistent t)
  /\ working (trun' t (action calls TCommit)) = None.
Proof. rewrite trun_action. split; reflexivity. Qed.

(** so after an action interrupted anywhere, or completed, the store holds the
    before-state or the after-state, never a mixture *)
Theorem crash_before_or_after t calls k finish :
  finish = TAbandon \/ (finish = TCommit /\ k = length calls) ->
  let p := persistent (trun' t (action (take k calls) finish)) in
  p = persistent t \/ p = fold_left step calls (persistent t).
Proof.
  intros [->|[-> ->]]; cbn zeta.
  - left. apply abandon_leaves_before_state.
  - right. rewrite firstn_all. apply commit_installs_after_state.
Qed.
End P.
