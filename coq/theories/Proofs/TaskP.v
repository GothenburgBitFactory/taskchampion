(** What the readers return stays inside the ranges of their types -- parsed
    integers, timestamps, annotation times -- and an unknown status reads as
    such (C18); expiration removes exactly the long-deleted tasks (C20). *)
From TC Require Import Model.Task.
From Coq Require Import Strings.String.

(** The dispatch of [parse_i64] on a leading '+' (43) or '-' (45).  With [body]
    a variable, the case tree over the bits of 43 and 45 is walked over small
    terms. *)
Lemma sign_match_cases {A} (body : Z -> list N -> option A) s r :
  match s with
  | [] => None
  | 43%N :: l => body 1%Z l
  | 45%N :: l => body (-1)%Z l
  | _ => body 1%Z s
  end = Some r ->
  exists sign l, body sign l = Some r.
Proof. repeat case_match; first [discriminate | eauto]. Qed.

Lemma range_check_Some (lo hi v z : Z) :
  (if (lo <=? v)%Z && (v <=? hi)%Z then Some v else None) = Some z -> z = v /\ (lo <= v <= hi)%Z.
Proof.
  destruct (_ && _) eqn:E; [|discriminate]. intros [= ->].
  apply andb_true_iff in E. rewrite !Z.leb_le in E. auto.
Qed.

Lemma parse_i64_range s z : parse_i64 s = Some z -> (-9223372036854775808 <= z <= 9223372036854775807)%Z.
Proof.
  intros (sign & l & H)%sign_match_cases.
  destruct l; [discriminate|]. destruct (digits_val 0 _) as [z0|]; [|discriminate].
  apply range_check_Some in H as [-> H]. exact H.
Qed.

Lemma match_option_true {A} (o : option A) (f : A -> bool) (P : A -> Prop) :
  (forall x, f x = true <-> P x) ->
  match o with Some x => f x | None => false end = true <-> exists x, o = Some x /\ P x.
Proof.
  intros Hf. destruct o as [x|].
  - rewrite Hf. split; [eauto|]. intros (? & [= <-] & H). exact H.
  - split; [discriminate|]. intros (? & [=] & _).
Qed.

Section P.
Variable ts_min ts_max now : Z.

Lemma get_timestamp_in_range t p z :
  get_timestamp ts_min ts_max t p = Some z -> (ts_min <= z <= ts_max)%Z.
Proof.
  unfold get_timestamp. destruct (t !! p) as [v|]; [|discriminate].
  destruct (parse_i64 v) as [z0|]; [|discriminate]. intros [-> H]%range_check_Some. exact H.
Qed.

Lemma annotations_in_range t z d :
  (z, d) ∈ annotations ts_min ts_max t -> (ts_min <= z <= ts_max)%Z.
Proof.
  intros ([k v] & _ & H)%elem_of_list_omap.
  destruct (strip_prefix _ k) as [x|]; [|discriminate]. destruct (parse_i64 x) as [z0|]; [|discriminate].
  destruct (timestamp_opt ts_min ts_max z0) as [z'|] eqn:E; [|discriminate].
  injection H as -> _. apply range_check_Some in E as [-> E]. exact E.
Qed.

Lemma status_unknown v :
  v <> s2l "pending" -> v <> s2l "completed" -> v <> s2l "deleted" -> v <> s2l "recurring" ->
  status_of v = StUnknown v.
Proof.
  intros. unfold status_of. rewrite !bool_decide_eq_false_2 by assumption. reflexivity.
Qed.

Theorem expire_exact (tasks : gmap N (gmap (list N) (list N))) u :
  expire_tasks ts_min ts_max now tasks !! u =
  match tasks !! u with
  | Some t => if expires ts_min ts_max now t then None else Some t
  | None => None
  end.
Proof.
  unfold expire_tasks. rewrite map_filter_lookup. destruct (tasks !! u) as [t|]; [|reflexivity].
  cbn. destruct (expires ts_min ts_max now t); reflexivity.
Qed.

Theorem expires_iff t :
  expires ts_min ts_max now t = true <->
  t !! k_status = Some (s2l "deleted")
  /\ exists z, get_timestamp ts_min ts_max t (s2l "modified") = Some z /\ (z < now - 180 * 86400)%Z.
Proof.
  unfold expires. rewrite andb_true_iff, bool_decide_eq_true. apply and_iff_compat_l.
  etrans; [|apply match_option_true; intros z; apply Z.ltb_lt].
  (* both sides read and parse the same stored value *)
  unfold get_timestamp. destruct (t !! _) as [m|]; [destruct (parse_i64 m)|]; reflexivity.
Qed.
End P.
