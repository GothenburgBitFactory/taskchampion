(** The SQL tables refine the storage specification: tasks and operation log,
    [remove_operation], the log stays sorted; a read-only handle refuses every
    modification; the working-set table by enumeration of a small scope (in
    general: SqlWsP.v) (C16). *)
From TC Require Import Model.SqlStore Proofs.StorageP.

(** synced rows precede unsynced rows: [sync_complete] marks all rows
    ([ops_sorted_all_synced]), new rows are appended unsynced ([ops_sorted_add]) *)
Definition ops_sorted (l : list (bool * op)) : Prop :=
  exists a b, l = map (pair true) a ++ map (pair false) b.

Lemma remove_last_unsynced_synced a o : remove_last_unsynced (map (pair true) a) o = None.
Proof.
  induction a as [|x a IH]; cbn; [reflexivity|]. rewrite IH. destruct (existsb _ _); reflexivity.
Qed.

Lemma remove_last_unsynced_snoc l x o :
  remove_last_unsynced (l ++ [(false, x)]) o = if bool_decide (x = o) then Some l else None.
Proof.
  induction l as [|[b y] l IH]; cbn.
  - reflexivity.
  - rewrite IH. destruct (bool_decide (x = o)); [reflexivity|].
    rewrite existsb_app. cbn. rewrite orb_true_r. reflexivity.
Qed.

(** removing an operation: the SQL statement (last unsynced row) and the
    specification (last row, which must be unsynced) agree on sorted logs *)
Theorem remove_operation_refines q o :
  ops_sorted (q_ops q) -> q_readonly q = false ->
  match q_remove_operation q o with
  | Some (Some (_, q')) => remove_operation (absq q) o = Some (absq q')
  | Some None => remove_operation (absq q) o = None
  | None => False
  end.
Proof.
  intros (a & b & Hl) Hro. unfold q_remove_operation. rewrite Hro, Hl.
  destruct b as [|x b _] using rev_ind.
  - (* nothing unsynced: the last row, if any, is synced *)
    cbn [map]. rewrite app_nil_r in *. rewrite remove_last_unsynced_synced.
    destruct a as [|y a _] using rev_ind; [exact (remove_operation_nil (absq q) o Hl)|].
    rewrite map_app in Hl. exact (remove_operation_snoc (absq q) _ true y o Hl).
  - (* the last row is the last unsynced one *)
    rewrite map_app, app_assoc in *. cbn [map] in *.
    rewrite remove_last_unsynced_snoc, (remove_operation_snoc (absq q) _ false x o Hl).
    destruct (bool_decide (x = o)); reflexivity.
Qed.

Lemma ops_sorted_add l o : ops_sorted l -> ops_sorted (l ++ [(false, o)]).
Proof. intros (a & b & ->). exists a, (b ++ [o]). rewrite map_app, app_assoc. reflexivity. Qed.

Lemma ops_sorted_all_synced (f : bool * op -> option (bool * op)) l :
  (forall x y, f x = Some y -> y.1 = true) -> ops_sorted (omap f l).
Proof.
  intros Hf. exists (map snd (omap f l)), []. cbn. rewrite app_nil_r.
  induction l as [|x l IH]; cbn; [reflexivity|].
  destruct (f x) as [[b o]|] eqn:E; cbn; [|exact IH].
  apply Hf in E. cbn in E. subst. f_equal. exact IH.
Qed.

(** the other calls on tasks, base version and the operation log commute with
    [absq] on the nose *)
Theorem tasks_and_log_refine q u t o b :
  q_readonly q = false ->
  (forall r q', q_create_task q u = Some (r, q') -> create_task (absq q) u = (r, absq q'))
  /\ (forall q', q_set_task q u t = Some (tt, q') -> set_task (absq q) u t = absq q')
  /\ (forall r q', q_delete_task q u = Some (r, q') -> delete_task (absq q) u = (r, absq q'))
  /\ (forall q', q_set_base q b = Some (tt, q') -> set_base (absq q) b = absq q')
  /\ (forall q', q_add_operation q o = Some (tt, q') -> add_operation (absq q) o = absq q')
  /\ (forall q', q_sync_complete q = Some (tt, q') -> sync_complete (absq q) = absq q').
Proof.
  intros Hro. unfold q_create_task, q_set_task, q_delete_task, q_set_base, q_add_operation,
    q_sync_complete, rw_guard. rewrite Hro.
  split; [|split; [|split; [|split; [|split]]]].
  - intros r q' H. unfold create_task. cbn. destruct (q_tasks q !! u); inv H; reflexivity.
  - intros q' H. inv H. reflexivity.
  - intros r q' H. unfold delete_task. cbn. destruct (q_tasks q !! u); inv H; reflexivity.
  - intros q' H. inv H. reflexivity.
  - intros q' H. inv H. reflexivity.
  - intros q' H. inv H. reflexivity.
Qed.

Theorem readonly_refuses_all q u t o b i x :
  q_readonly q = true ->
  q_create_task q u = None /\ q_set_task q u t = None /\ q_delete_task q u = None
  /\ q_set_base q b = None /\ q_add_operation q o = None /\ q_remove_operation q o = None
  /\ q_sync_complete q = None /\ q_add_to_working_set q u = None
  /\ q_set_working_set_item q i x = None /\ q_clear_working_set q = None.
Proof.
  intros H. unfold q_create_task, q_set_task, q_delete_task, q_set_base, q_add_operation,
    q_remove_operation, q_sync_complete, q_add_to_working_set, q_set_working_set_item,
    q_clear_working_set, rw_guard. rewrite H. repeat split.
Qed.

(** The working-set table by complete enumeration of a small scope: all tables
    with ids in 1..4 over 3 uuids; the SQL statements on the table and the
    specification on its vector agree for add, set (in range) and clear. *)
Definition small_ws_tables : list (gmap nat N) :=
  let opts := [None; Some 0%N; Some 1%N; Some 2%N] in
  flat_map (fun a => flat_map (fun b => flat_map (fun c => map (fun d =>
    let add i (x : option N) (m : gmap nat N) := match x with Some u => <[i := u]> m | None => m end in
    add 1 a (add 2 b (add 3 c (add 4 d ∅)))) opts) opts) opts) opts.

Definition ws_table_ok (m : gmap nat N) : bool :=
  let s := {| st_tasks := ∅; st_base := 0; st_ops := []; st_ws := ws_vector m |} in
  (* add *)
  forallb (fun u =>
    bool_decide ((add_to_working_set s u).1 = ws_next m)
    && bool_decide (st_ws (add_to_working_set s u).2 = ws_vector (<[ws_next m := u]> m))) [0%N; 1%N]
  (* set, for every index inside the vector except 0 *)
  && forallb (fun i =>
       forallb (fun x =>
         match set_working_set_item s i x with
         | Some s' => bool_decide (st_ws s' = ws_vector (match x with Some u => <[i := u]> m | None => delete i m end))
         | None => false
         end) [None; Some 0%N; Some 2%N]) (seq 1 (length (ws_vector m) - 1))
  (* clear *)
  && bool_decide (st_ws (clear_working_set s) = ws_vector (∅ : gmap nat N)).

Lemma ws_table_small_scope : forallb ws_table_ok small_ws_tables = true.
Proof. vm_compute. reflexivity. Qed.

Lemma ws_table_small_scope_size : length small_ws_tables = 256.
Proof. vm_compute. reflexivity. Qed.
