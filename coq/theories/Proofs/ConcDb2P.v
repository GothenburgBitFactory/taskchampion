(** Concurrent commits and working-set rebuilds on one store (C17). *)
From TC Require Import Model.TaskDb Model.Conc Proofs.StorageP Proofs.ConcP Proofs.ConcDbP Proofs.CommitP
  Proofs.WorkingSetP Proofs.WriteBackP.

Section P.
Variable status : N.
Variable is_pr : N -> bool.

Definition in_ws_pred (t : gmap N N) : bool :=
  match t !! status with Some v => is_pr v | None => false end.

(** what a handle does inside a transaction: commit a batch, or rebuild the
    working set from a listing of the tasks (any listing, chosen by the
    schedule; one that names a task twice is no listing of a map and does
    nothing).  Under the invariant the rebuild does not fail ([dstep_keeps]). *)
Inductive dbcall :=
| DCommit (ops : list op)
| DRebuild (all : list (N * gmap N N)) (renumber : bool).

Definition dstep (s : store) (c : dbcall) : store :=
  match c with
  | DCommit ops => commit_operations status is_pr s ops
  | DRebuild all renumber =>
      if bool_decide (NoDup (map fst all))
      then default s (rebuild_with in_ws_pred all s renumber)
      else s
  end.

Definition db_inv2 (base : db) (s : store) : Prop :=
  db_inv base s /\ ws_normal (st_ws s).

Lemma dstep_keeps base s c : db_inv2 base s -> db_inv2 base (dstep s c).
Proof.
  intros [Hd Hn]. destruct c as [ops|all renumber]; cbn [dstep].
  - split; [apply commit_keeps_db_inv; exact Hd|].
    pose proof (commit_spec status is_pr s ops) as (_ & _ & _ & _ & added & -> & _).
    apply ws_normal_app_somes; [exact Hn|]. apply Forall_fmap, Forall_true. cbn. eauto.
  - destruct (bool_decide_reflect (NoDup (map fst all))) as [Hnd|_]; [|split; assumption].
    rewrite rebuild_with_spec by exact Hn. destruct Hd as [D1 D2].
    split; [split; [exact D1|]|apply rebuild_spec_normal].
    apply ws_no_duplicates; assumption.
Qed.

(** with rebuilds among the calls the invariant still holds in every reachable
    state, and the working set stays in the storage's normal form *)
Theorem concurrent_commits_and_rebuilds base s l :
  db_inv2 base s ->
  db_inv2 base (cpersist (crun dstep {| cpersist := s; cholder := None |} l)).
Proof. apply invariant_of_calls, dstep_keeps. Qed.
End P.
