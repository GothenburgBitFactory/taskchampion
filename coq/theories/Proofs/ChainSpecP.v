(** Properties of the version-chain protocol itself (C08). *)
From TC Require Import Model.ChainSpec.

Lemma add_version_step s parent newid payload :
  chain_step s (BAddVersion parent newid payload) =
  if decide (cs_versions s = [] \/ parent = head s)
  then (BOk newid, {| cs_versions := cs_versions s ++ [(newid, parent, payload)]; cs_snapshots := cs_snapshots s |})
  else (BExpected (head s), s).
Proof.
  cbn [chain_step]. destruct (cs_versions s) as [|x l] eqn:E; [rewrite decide_True by auto; reflexivity|].
  destruct (N.eqb_spec parent (head s)); [rewrite decide_True by auto; reflexivity|].
  rewrite decide_False by (intros [?|?]; [discriminate|contradiction]). reflexivity.
Qed.

Lemma accept_iff s parent newid payload :
  (chain_step s (BAddVersion parent newid payload)).1 = BOk newid
  <-> (cs_versions s = [] \/ parent = head s).
Proof. rewrite add_version_step. case_decide; cbn; intuition discriminate. Qed.

Lemma reject_changes_nothing s parent newid payload r :
  (chain_step s (BAddVersion parent newid payload)).1 = BExpected r ->
  r = head s /\ (chain_step s (BAddVersion parent newid payload)).2 = s.
Proof. rewrite add_version_step. case_decide; cbn; [discriminate|]. intros [= <-]. auto. Qed.

Lemma reads_change_nothing s parent :
  (chain_step s (BGetChild parent)).2 = s /\ (chain_step s BGetSnapshot).2 = s.
Proof. cbn. destruct (child_of s parent); auto. Qed.

Lemma find_app {A} (f : A -> bool) l1 l2 :
  find f (l1 ++ l2) = match find f l1 with Some x => Some x | None => find f l2 end.
Proof. induction l1 as [|x l1 IH]; cbn; [reflexivity|]. destruct (f x); [reflexivity|exact IH]. Qed.

(** [parent] must be childless: the specification takes any new id, also
    that of the head itself, and an older child of [parent] would be found first *)
Lemma accepted_is_served s parent newid payload :
  child_of s parent = None ->
  (chain_step s (BAddVersion parent newid payload)).1 = BOk newid ->
  (chain_step (chain_step s (BAddVersion parent newid payload)).2 (BGetChild parent)).1 = BVersion newid payload.
Proof.
  intros Hno Hok%accept_iff. rewrite add_version_step, decide_True by exact Hok.
  unfold child_of in *. cbn. rewrite find_app, Hno. cbn. rewrite N.eqb_refl. reflexivity.
Qed.

Lemma unknown_parent s parent :
  child_of s parent = None -> (chain_step s (BGetChild parent)).1 = BNoSuch.
Proof. cbn. intros ->. reflexivity. Qed.

(** every version but the first has the previous one as parent *)
Fixpoint linked (prev : option N) (l : list (N * N * N)) : Prop :=
  match l with
  | [] => True
  | v :: l' => match prev with Some p => v.1.2 = p | None => True end /\ linked (Some v.1.1) l'
  end.

(** [linked] threads the id of the version before through the list *)
Lemma linked_app l1 l2 : forall prev,
  linked prev (l1 ++ l2) <->
  linked prev l1 /\ linked (match last l1 with Some v => Some v.1.1 | None => prev end) l2.
Proof.
  induction l1 as [|x l1 IH]; intros prev; cbn [app linked last]; [tauto|].
  rewrite IH, last_cons. destruct (last l1); apply and_assoc.
Qed.

Theorem chain_stays_linked s c :
  linked None (cs_versions s) -> linked None (cs_versions (chain_step s c).2).
Proof.
  intros H. destruct c; [|cbn [chain_step]..]; try exact H.
  - rewrite add_version_step. case_decide as Hok; [|exact H]. apply linked_app. split; [exact H|].
    (* appended after the latest version, which [head] names *)
    destruct Hok as [-> | ->]; [cbn; auto|]. unfold head. destruct (last (cs_versions s)); cbn; auto.
  - destruct (child_of s parent); exact H.
Qed.
