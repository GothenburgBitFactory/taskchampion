(** [commit_operations]: tasks as by one-at-a-time application, the batch is
    appended in order to the unsynced operations, the working set is only
    extended at its end (C05, C15); the tasks stay the replay of the unsynced
    operations over the synchronised state (C05, C17). *)
From TC Require Import Model.TaskDb Proofs.StorageP Proofs.ApplyP.

Lemma fold_add_operation ops : forall s,
  fold_left add_operation ops s = set_ops s (st_ops s ++ map (pair false) ops).
Proof.
  induction ops as [|o ops IH]; intros s; cbn [fold_left map].
  - rewrite app_nil_r. symmetry. apply set_ops_id.
  - rewrite IH. cbn. rewrite <- app_assoc. reflexivity.
Qed.

Lemma ws_add_missing_spec us : forall s,
  exists added, ws_add_missing s us = set_ws s (st_ws s ++ map Some added)
    /\ NoDup added /\ forall x, x ∈ added <-> x ∈ us /\ Some x ∉ st_ws s.
Proof.
  unfold ws_add_missing. induction us as [|u us IH]; intros s; cbn [fold_left].
  - exists []. rewrite app_nil_r, set_ws_id. split; [reflexivity|]. split; [constructor|].
    intros x. rewrite !elem_of_nil. tauto.
  - destruct (bool_decide_reflect (Some u ∈ st_ws s)) as [Hu|Hu].
    + destruct (IH s) as (added & -> & Hnd & Hadd). exists added. split; [reflexivity|]. split; [exact Hnd|].
      intros x. rewrite Hadd, elem_of_cons. split; [tauto|]. intros [[->|Hx] Hn]; tauto.
    + destruct (IH (add_to_working_set s u).2) as (added & -> & Hnd & Hadd). cbn in Hadd |- *.
      exists (u :: added). rewrite <- app_assoc. split; [reflexivity|]. split.
      * constructor; [|exact Hnd]. rewrite Hadd, elem_of_app, elem_of_list_singleton. tauto.
      * intros x. rewrite !elem_of_cons, Hadd, elem_of_app, elem_of_list_singleton.
        destruct (decide (x = u)) as [->|Hne]; [tauto|]. intuition congruence.
Qed.

Lemma commit_operations_eq status is_pr s ops :
  exists added,
    commit_operations status is_pr s ops
    = {| st_tasks := applyl (st_tasks s) (sync_form ops); st_base := st_base s;
         st_ops := st_ops s ++ map (pair false) ops; st_ws := st_ws s ++ map Some added |}
    /\ NoDup added
    /\ forall u, u ∈ added <-> u ∈ omap (adds_to_ws status is_pr) ops /\ Some u ∉ st_ws s.
Proof.
  unfold commit_operations. rewrite apply_operations_eq.
  destruct (ws_add_missing_spec (omap (adds_to_ws status is_pr) ops)
              (set_tasks s (applyl (st_tasks s) (sync_form ops)))) as (added & -> & Hadd).
  exists added. rewrite fold_add_operation. split; [reflexivity|exact Hadd].
Qed.

Theorem commit_spec status is_pr s ops :
  let s' := commit_operations status is_pr s ops in
  st_tasks s' = applyl (st_tasks s) (sync_form ops)
  /\ unsynced s' = unsynced s ++ ops
  /\ st_ops s' = st_ops s ++ map (pair false) ops
  /\ st_base s' = st_base s
  /\ exists added, st_ws s' = st_ws s ++ map Some added
       /\ NoDup added
       /\ (forall u, u ∈ added -> u ∈ omap (adds_to_ws status is_pr) ops /\ Some u ∉ st_ws s)
       /\ (forall u, u ∈ omap (adds_to_ws status is_pr) ops -> Some u ∈ st_ws s').
Proof.
  destruct (commit_operations_eq status is_pr s ops) as (added & -> & Hnd & Hadd).
  cbn [st_tasks st_ops st_base st_ws].
  split; [reflexivity|]. split; [apply (unsynced_appended s); reflexivity|].
  split; [reflexivity|]. split; [reflexivity|].
  exists added. split; [reflexivity|]. split; [exact Hnd|]. split; [apply Hadd|].
  intros u Hu. apply elem_of_app. destruct (decide (Some u ∈ st_ws s)) as [Hs|Hs]; [auto|].
  right. apply elem_of_list_fmap. exists u. split; [reflexivity|]. apply Hadd. auto.
Qed.

Lemma commit_keeps_replay status is_pr s ops base :
  st_tasks s = applyl base (sync_form (unsynced s)) ->
  st_tasks (commit_operations status is_pr s ops)
  = applyl base (sync_form (unsynced (commit_operations status is_pr s ops))).
Proof.
  intros H. destruct (commit_spec status is_pr s ops) as (C1 & C2 & _).
  rewrite C1, C2, H. unfold sync_form, applyl. rewrite omap_app, fold_left_app. reflexivity.
Qed.
