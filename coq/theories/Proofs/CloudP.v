(** The object-store server, one request at a time: what a cleanup selects from
    its listings (C10), what single requests do to [latest] and to the objects
    (C09, C11), what a listing page contains, and clients that hold distinct ids. *)
From TC Require Import Model.Cloud.

(** Listings and the plan sort by insertion ([ins_ver], [ins_snap], [ins_child]):
    whatever the order, the sorted list has the elements of the given one. *)
Lemma elem_of_insertion_sort {A} (lt : A -> A -> bool) (ins : A -> list A -> list A) :
  (forall x, ins x [] = [x]) ->
  (forall x y l, ins x (y :: l) = if lt x y then x :: y :: l else y :: ins x l) ->
  forall x l, x ∈ foldr ins [] l <-> x ∈ l.
Proof.
  intros Hnil Hcons x.
  assert (forall y l, x ∈ ins y l <-> x ∈ y :: l) as Hins.
  { intros y l. induction l as [|z l IH]; [rewrite Hnil; reflexivity|].
    rewrite Hcons. destruct (lt y z); [reflexivity|].
    rewrite (elem_of_cons (ins y l)), IH, !elem_of_cons. tauto. }
  induction l as [|y l IH]; cbn [foldr]; [reflexivity|]. rewrite Hins, !elem_of_cons, IH. reflexivity.
Qed.

Section Plan.
Variable rank : N -> N.
Variable threshold : N.

Lemma elem_of_by_child x l : x ∈ by_child rank l <-> x ∈ l.
Proof. apply (elem_of_insertion_sort (fun a b => (rank a.1.2 <? rank b.1.2)%N)); reflexivity. Qed.

(** (a) a version is deleted as a loser only if its parent has a different
    child on the known chain: it can never be committed *)
Theorem losers_have_lost vers chain p c :
  (p, c) ∈ losers rank vers chain ->
  (exists t, (p, c, t) ∈ vers) /\ exists c', chain_child chain p = Some c' /\ c' <> c.
Proof.
  unfold losers. intros H. apply elem_of_list_omap in H. destruct H as (((p0 & c0) & t) & Hin & H).
  cbn in H. destruct (chain_child chain p0) as [c'|] eqn:E; [|discriminate].
  destruct (N.eqb_spec c' c0); [discriminate|]. inv H.
  split; [exists t; apply elem_of_by_child; exact Hin|]. eauto.
Qed.

(** (b) a snapshot is deleted as redundant only if its version is on the
    known chain strictly before (older than) the newest on-chain snapshot *)
Theorem old_snapshots_are_older l chain snaps s v :
  v ∈ old_snapshots l chain snaps s ->
  v ∈ snaps /\ v ∈ tail (drop_until s (chain_versions l chain)).
Proof.
  unfold old_snapshots. intros H. apply elem_of_list_filter in H. destruct H as [H1 H2].
  apply bool_decide_unpack in H1. auto.
Qed.

Lemma latest_snapshot_on_chain l chain snaps s :
  latest_snapshot l chain snaps = Some s -> s ∈ snaps /\ s ∈ chain_versions l chain.
Proof.
  unfold latest_snapshot. intros H. apply find_some in H. destruct H as [H1 H2].
  apply bool_decide_eq_true in H2. split; [exact H2|]. apply elem_of_list_In. exact H1.
Qed.

(** an old version is an entry of the known chain at or after the entry of
    [s], created before the threshold *)
Lemma old_versions_elem vers chain s d :
  d ∈ old_versions threshold vers chain s ->
  exists i j e0 e, chain !! i = Some e0 /\ e0.1 = s /\ chain !! j = Some e /\ (i <= j)%nat /\ d = (e.2, e.1)
    /\ exists t, creation_of vers e.1 = Some t /\ (t < threshold)%N.
Proof.
  unfold old_versions. intros (e & He & Hd)%elem_of_list_omap.
  assert (exists i j e0, chain !! i = Some e0 /\ e0.1 = s /\ chain !! j = Some e /\ (i <= j)%nat) as (i & j & e0 & H1 & H2 & H3 & H4).
  { induction chain as [|e1 chain IH]; [inversion He|]. destruct (N.eqb_spec e1.1 s) as [E|E].
    - apply elem_of_list_lookup in He as [j Hj]. exists 0%nat, j, e1. repeat split; auto. lia.
    - destruct (IH He) as (i & j & e0 & ? & ? & ? & ?). exists (S i), (S j), e0. repeat split; auto. lia. }
  exists i, j, e0, e. destruct (creation_of vers e.1) as [t|]; [|discriminate].
  destruct (N.ltb_spec t threshold); [|discriminate]. injection Hd as <-. eauto 10.
Qed.

(** (c) an old version is deleted only if it is older than the threshold and
    sits on the known chain at or before the newest on-chain snapshot *)
Theorem old_versions_are_covered vers chain s p c :
  (p, c) ∈ old_versions threshold vers chain s ->
  (exists t, creation_of vers c = Some t /\ (t < threshold)%N) /\ (c, p) ∈ chain.
Proof.
  intros (i & j & e0 & [c0 p0] & _ & _ & Hj%elem_of_list_lookup_2 & _ & [= -> ->] & Ht)%old_versions_elem.
  split; [exact Ht|exact Hj].
Qed.

(** the local [from] of [old_versions]: the chain from the entry of [s] on,
    the (newer) entries before it left out *)
Lemma from_is_suffix (s : N) (chain : list (N * N)) :
  exists pre, chain = pre ++
    (fix from (xs : list (N * N)) := match xs with
                                     | [] => []
                                     | e :: xs' => if N.eqb e.1 s then e :: xs' else from xs'
                                     end) chain
    /\ Forall (fun e => e.1 <> s) pre.
Proof.
  induction chain as [|e ch IH].
  - exists []. split; [reflexivity|constructor].
  - destruct (N.eqb_spec e.1 s) as [He|He].
    + exists []. split; [reflexivity|constructor].
    + destruct IH as (pre & H1 & H2). exists (e :: pre). split.
      * cbn [app]. f_equal. exact H1.
      * constructor; assumption.
Qed.

End Plan.

Lemma drop_until_tail_elem s (L : list N) x :
  x ∈ tail (drop_until s L) -> exists i j, (i < j)%nat /\ L !! i = Some s /\ L !! j = Some x.
Proof.
  induction L as [|y L IH]; cbn; [intros []%elem_of_nil|]. destruct (N.eqb_spec y s) as [->|Hne].
  - intros [j Hj]%elem_of_list_lookup. exists 0%nat, (S j). repeat split; auto. lia.
  - intros (i & j & Hlt & Hi & Hj)%IH. exists (S i), (S j). repeat split; auto. lia.
Qed.

Section Mechanism.
Variable rank : N -> N.
Variable pagesz : nat.
Variable threshold : N.
Variable now : N.

Lemma latest_changes_only_by_cas st q :
  o_latest (ostore_step rank pagesz now st q).2 <> o_latest st ->
  exists old new, q = QCasLatest old new /\ o_latest st = old
                  /\ o_latest (ostore_step rank pagesz now st q).2 = Some new.
Proof.
  destruct q; cbn; try congruence.
  destruct (bool_decide (o_latest st = old)) eqn:E; cbn; [|congruence].
  apply bool_decide_eq_true in E. intros _. eauto.
Qed.

Lemma vers_change st q :
  o_vers (ostore_step rank pagesz now st q).2 = o_vers st
  \/ (exists p c pl, q = QPutVer p c pl /\ o_vers (ostore_step rank pagesz now st q).2 = <[(p, c) := (pl, now)]> (o_vers st))
  \/ (exists p c, q = QDelVer p c /\ o_vers (ostore_step rank pagesz now st q).2 = delete (p, c) (o_vers st)).
Proof.
  destruct q; cbn; auto.
  - destruct (bool_decide _); auto.
  - right. left. eauto.
  - right. right. eauto.
Qed.

(** the second of two swaps expecting the same value fails if the first
    succeeded: [latest] is then the first one's new id, which is not the
    expected value because ids are not reused *)
Lemma cas_excludes st old new1 new2 :
  Some new1 <> old ->
  (ostore_step rank pagesz now st (QCasLatest old new1)).1 = PBool true ->
  (ostore_step rank pagesz now (ostore_step rank pagesz now st (QCasLatest old new1)).2 (QCasLatest old new2)).1 = PBool false.
Proof.
  intros Hne. cbn. case_bool_decide; cbn; [|discriminate].
  intros _. rewrite bool_decide_eq_false_2 by exact Hne. reflexivity.
Qed.

Lemma add_version_swap_shape c q :
  cl_next c = inl q -> (exists old new, q = QCasLatest old new) ->
  exists p c0 pl l, c = A2 p c0 pl l /\ q = QCasLatest l c0.
Proof.
  intros H (old & new & ->). destruct c; cbn in H; repeat case_match; try discriminate.
  injection H as <- <-. eauto 10.
Qed.

Lemma add_version_parent_is_latest p c pl r l :
  cl_resume rank threshold (A0 p c pl) r = A1 p c pl l -> forall l0, l = Some l0 -> l0 = p.
Proof.
  destruct r as [[l1|]| | | | |]; cbn; try discriminate.
  - destruct (N.eqb_spec l1 p); [|discriminate]. intros H l0 El. congruence.
  - intros H l0 El. congruence.
Qed.

Lemma helpers_not_ok c0 u :
  (forall p todo best, next_scan p todo best <> CDone (CAddOk c0 u))
  /\ (forall l vers dels, after_k2 l vers dels <> CDone (CAddOk c0 u))
  /\ (forall sd vd, after_k4 sd vd <> CDone (CAddOk c0 u))
  /\ (forall vd, after_k5 vd <> CDone (CAddOk c0 u)).
Proof.
  repeat split.
  - intros p [|x todo] [b|]; cbn; discriminate.
  - intros l vers [|d dels]; cbn; discriminate.
  - intros [|d sd] [|e vd]; cbn; discriminate.
  - intros [|e vd]; cbn; discriminate.
Qed.

Lemma add_version_ok_only_after_swap c r c0 u :
  cl_resume rank threshold c r = CDone (CAddOk c0 u) -> c = A5 c0.
Proof.
  (* a sweep over the arms of [cl_resume]: each gives a machine that goes on, a
     result of another kind, one of the four continuations above, or is [A5]'s *)
  destruct (helpers_not_ok c0 u) as (N1 & N2 & N3 & N4).
  destruct c, r; cbn; try discriminate;
    repeat match goal with
    | |- context [match ?x with _ => _ end] => destruct x
    end; try discriminate;
    try (intros H; exfalso; first [eapply N1; exact H | eapply N2; exact H | eapply N3; exact H | eapply N4; exact H]).
  all: intros H; inv H; reflexivity.
Qed.

End Mechanism.

Section Listings.
Variable rank : N -> N.
Variable pagesz : nat.
Variable now : N.

Lemma elem_of_sorted_vers (m : gmap (N * N) (N * N)) x :
  x ∈ sorted_vers rank m -> exists pl, m !! x.1 = Some (pl, x.2).
Proof.
  unfold sorted_vers. rewrite (elem_of_insertion_sort (fun a b => ver_lt rank a.1 b.1)), elem_of_list_fmap by reflexivity.
  intros ([k [pl t]] & -> & Hin). exists pl. apply elem_of_map_to_list. exact Hin.
Qed.

Lemma elem_of_sorted_snaps (m : gmap N N) x : x ∈ sorted_snaps rank m -> x ∈ dom m.
Proof.
  unfold sorted_snaps. rewrite (elem_of_insertion_sort (fun a b => (rank a <? rank b)%N)), elem_of_list_fmap by reflexivity.
  intros ([k pl] & -> & Hin). apply elem_of_dom. exists pl. apply elem_of_map_to_list. exact Hin.
Qed.

Lemma ver_page st parent after :
  exists l more, ostore_step rank pagesz now st (QListVer parent after) = (PVerPage l more, st)
    /\ forall x, x ∈ l -> (exists pl, o_vers st !! x.1 = Some (pl, x.2)) /\ (forall p, parent = Some p -> x.1.1 = p).
Proof.
  eexists _, _. split; [reflexivity|]. intros x (k & Hx%elem_of_list_lookup_2 & _)%elem_of_take.
  destruct after; [apply elem_of_list_filter in Hx as [_ Hx]|]; apply elem_of_list_filter in Hx as [Hp Hs].
  all: split; [apply elem_of_sorted_vers, Hs|intros p0 ->; apply N.eqb_eq, Hp].
Qed.

Lemma snap_page st after :
  exists l more, ostore_step rank pagesz now st (QListSnap after) = (PSnapPage l more, st)
    /\ Forall (fun x => x ∈ dom (o_snaps st)) l.
Proof.
  eexists _, _. split; [reflexivity|]. apply Forall_forall. intros x (k & Hx%elem_of_list_lookup_2 & _)%elem_of_take.
  apply elem_of_sorted_snaps.
  destruct after; [apply elem_of_list_filter in Hx as [_ Hx]|]; exact Hx.
Qed.
End Listings.

Section Owners.
Context {A B : Type} (f : A -> option B).

(** with [f := owned], what [CloudInvP.CInv] and [CleanupInvP.Own] spell out *)
Definition owners_disjoint (m : gmap nat A) : Prop :=
  forall i j a a' x, i <> j -> m !! i = Some a -> m !! j = Some a' -> f a = Some x -> f a' = Some x -> False.

(** no client other than [i] holds [x] *)
Definition strangers (m : gmap nat A) (i : nat) (x : B) : Prop :=
  forall j a, j <> i -> m !! j = Some a -> f a <> Some x.

Lemma strangers_mine m i a x : owners_disjoint m -> m !! i = Some a -> f a = Some x -> strangers m i x.
Proof. intros Hown Hi Hx j a' Hne Hj Hx'. exact (Hown i j a a' x (not_eq_sym Hne) Hi Hj Hx Hx'). Qed.

(** client [i] goes on as [oc] or is gone: what to check for a property [P] of
    all clients and for disjointness *)
Lemma clients_update (P : A -> Prop) m i oc :
  owners_disjoint m ->
  (forall j a, j <> i -> m !! j = Some a -> P a) ->
  (forall a, oc = Some a -> P a /\ forall x, f a = Some x -> strangers m i x) ->
  (forall j a, partial_alter (fun _ => oc) i m !! j = Some a -> P a)
  /\ owners_disjoint (partial_alter (fun _ => oc) i m).
Proof.
  intros Hown Hothers Hoc.
  assert (forall j a, partial_alter (fun _ => oc) i m !! j = Some a ->
            j = i /\ oc = Some a \/ j <> i /\ m !! j = Some a) as Hcases.
  { intros j a. destruct (decide (j = i)) as [->|Hne];
      [rewrite lookup_partial_alter|rewrite lookup_partial_alter_ne by congruence]; auto. }
  split.
  - intros j a [[_ Ha]|[Hne Hj]]%Hcases; [apply Hoc, Ha|eauto].
  - intros j k a a' x Hjk [[-> Ha]|[Hj Ha]]%Hcases [[-> Ha']|[Hk Ha']]%Hcases Hx Hx'.
    + congruence.
    + exact (proj2 (Hoc a Ha) x Hx k a' Hk Ha' Hx').
    + exact (proj2 (Hoc a' Ha') x Hx' j a Hj Ha Hx).
    + exact (Hown j k a a' x Hjk Ha Ha' Hx Hx').
Qed.
End Owners.

(** add-version's commit point (C11) *)
Lemma latest_untouched_before_swap rank pagesz now st q :
  (forall old new, q <> QCasLatest old new) ->
  o_latest (ostore_step rank pagesz now st q).2 = o_latest st.
Proof.
  intros Hq. destruct q; cbn; try reflexivity. exfalso. eapply Hq. reflexivity.
Qed.

Lemma swap_is_atomic rank pagesz now st old new :
  let st' := (ostore_step rank pagesz now st (QCasLatest old new)).2 in
  (o_latest st = old /\ o_latest st' = Some new /\ o_vers st' = o_vers st /\ o_snaps st' = o_snaps st)
  \/ (o_latest st <> old /\ st' = st).
Proof.
  cbn. destruct (bool_decide (o_latest st = old)) eqn:E.
  - apply bool_decide_eq_true in E. left. cbn. auto.
  - apply bool_decide_eq_false in E. right. cbn. auto.
Qed.
