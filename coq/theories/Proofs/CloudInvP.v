(** One version chain under concurrent clients of the object-store server (C09):
    the inductive invariant over ALL schedules.

    The system: the object store, any number of client machines (add-version,
    get-child-version, add-snapshot, get-snapshot; no cleanup, which is C10),
    and ghosts: the successive values of [latest] ([c_hist], oldest first), the
    next fresh version id, what each add-version call submitted ([c_sub]) and
    every result a call returned ([c_results]).  Events: a client starts a call
    (add-version takes the next fresh id, as a random uuid would be; its parent
    is the nil version 0 or a version that has been [latest] -- clients only
    name versions a server gave them), performs its next request, is dropped at
    any point (error, crash), or has its request performed and is then dropped
    (lost reply).

    The chain part of the invariant is proved as [ChainInv cut], which C10
    uses at its cut; the consequences for writers and readers are at the end. *)
From TC Require Import Model.Cloud Proofs.CloudP.

Record csys := {
  c_store : ostore;
  c_clients : gmap nat cpc;
  c_hist : list N;
  c_next : N;
  c_sub : gmap N (N * N);                (* id -> (parent, payload) submitted *)
  c_results : list (cpc * cres)          (* (state of the call before its last request, result) *)
}.

Inductive cev :=
| VStartAdd (i : nat) (p pl : N)
| VStartGet (i : nat) (p : N)
| VStartAddSnap (i : nat) (v pl : N)
| VStartGetSnap (i : nat)
| VStep (i : nat) (now : N)
| VDrop (i : nat)
| VFailAfter (i : nat) (now : N).

Section Chain.
Variable rank : N -> N.
Variable pagesz : nat.
Variable threshold : N.

Definition hist_after (st st' : ostore) (h : list N) : list N :=
  if bool_decide (o_latest st' = o_latest st) then h
  else match o_latest st' with Some c => h ++ [c] | None => h end.

Definition with_clients (s : csys) (m : gmap nat cpc) : csys :=
  {| c_store := c_store s; c_clients := m; c_hist := c_hist s; c_next := c_next s;
     c_sub := c_sub s; c_results := c_results s |}.

Definition cstep (s : csys) (e : cev) : csys :=
  let start i c :=
    match c_clients s !! i with
    | None => with_clients s (<[i := c]> (c_clients s))
    | Some _ => s
    end in
  match e with
  | VStartAdd i p pl =>
      match c_clients s !! i with
      | None =>
          if bool_decide (p = 0%N \/ p ∈ c_hist s) then
            {| c_store := c_store s; c_clients := <[i := A0 p (c_next s) pl]> (c_clients s);
               c_hist := c_hist s; c_next := (c_next s + 1)%N;
               c_sub := <[c_next s := (p, pl)]> (c_sub s); c_results := c_results s |}
          else s
      | Some _ => s
      end
  | VStartGet i p => start i (G0 p [] None)
  | VStartAddSnap i v pl => start i (S0 v pl)
  | VStartGetSnap i => start i T0
  | VStep i now =>
      match c_clients s !! i with
      | Some c =>
          match cl_next c with
          | inl q =>
              let '(r, st') := ostore_step rank pagesz now (c_store s) q in
              let c' := cl_resume rank threshold c r in
              {| c_store := st';
                 c_clients := match c' with CDone _ => delete i (c_clients s) | _ => <[i := c']> (c_clients s) end;
                 c_hist := hist_after (c_store s) st' (c_hist s); c_next := c_next s; c_sub := c_sub s;
                 c_results := match c' with CDone r => (c, r) :: c_results s | _ => c_results s end |}
          | inr _ => s
          end
      | None => s
      end
  | VDrop i => with_clients s (delete i (c_clients s))
  | VFailAfter i now =>
      match c_clients s !! i with
      | Some c =>
          match cl_next c with
          | inl q =>
              let '(_, st') := ostore_step rank pagesz now (c_store s) q in
              {| c_store := st'; c_clients := delete i (c_clients s);
                 c_hist := hist_after (c_store s) st' (c_hist s); c_next := c_next s; c_sub := c_sub s;
                 c_results := c_results s |}
          | inr _ => s
          end
      | None => s
      end
  end.

Definition csys0 : csys :=
  {| c_store := ostore0; c_clients := ∅; c_hist := []; c_next := 1%N; c_sub := ∅; c_results := [] |}.

(** the id an add-version machine still has to commit or withdraw *)
Definition owned (c : cpc) : option N :=
  match c with A0 _ c _ | A1 _ c _ _ | A2 _ c _ _ | A3 _ c => Some c | _ => None end.

(** what the invariant talks about: everything but the snapshots and the clients *)
Record cview := {
  v_latest : option N; v_vers : gmap (N * N) (N * N); v_hist : list N; v_next : N;
  v_sub : gmap N (N * N) }.

Definition view (s : csys) : cview :=
  {| v_latest := o_latest (c_store s); v_vers := o_vers (c_store s); v_hist := c_hist s;
     v_next := c_next s; v_sub := c_sub s |}.

Definition fresh_id (v : cview) (p c pl : N) : Prop :=
  (0 < c)%N /\ (c < v_next v)%N /\ c ∉ v_hist v /\ v_sub v !! c = Some (p, pl)
  /\ (p = 0%N \/ p ∈ v_hist v).

Definition client_ok (v : cview) (c : cpc) : Prop :=
  match c with
  | A0 p c pl => fresh_id v p c pl /\ (forall p', v_vers v !! (p', c) = None)
  | A1 p c pl l => fresh_id v p c pl /\ (forall p', v_vers v !! (p', c) = None)
                   /\ (forall l0, l = Some l0 -> l0 = p)
  | A2 p c pl l => fresh_id v p c pl
                   /\ (forall p', is_Some (v_vers v !! (p', c)) -> p' = p)
                   /\ is_Some (v_vers v !! (p, c))
                   /\ (forall l0, l = Some l0 -> l0 = p)
  | A3 p c => (c < v_next v)%N /\ c ∉ v_hist v /\ (forall p', is_Some (v_vers v !! (p', c)) -> p' = p)
  | A4 => True
  | A5 c => c ∈ v_hist v
  | G0 _ acc _ => Forall (fun c => (0 < c)%N) acc
  | G1 _ ch => Forall (fun c => (0 < c)%N) ch
  | G2 _ todo cur ne _ best =>
      Forall (fun c => (0 < c)%N) todo /\ (0 < cur)%N /\ (ne = true -> cur ∈ v_hist v)
      /\ (forall b, best = Some b -> b ∈ v_hist v)
  | G3 _ c => c ∈ v_hist v
  | S0 _ _ | T0 | T1 _ => True
  | _ => False                       (* no cleanup machine, no finished call *)
  end.

Definition result_ok (v : cview) (x : cpc * cres) : Prop :=
  match x.2 with
  | CAddOk c _ => c ∈ v_hist v
  | CVersion c pl => exists p, x.1 = G3 p c /\ c ∈ v_hist v /\ v_sub v !! c = Some (p, pl)
  | CExpected l => l = 0%N \/ l ∈ v_hist v
  | _ => True
  end.

Definition Core (v : cview) : Prop :=
  (* the ghost history tracks latest *)
  v_latest v = last (v_hist v)
  /\ NoDup (v_hist v)
  /\ (0 < v_next v)%N
  /\ (forall c, c ∈ v_hist v -> (0 < c)%N /\ (c < v_next v)%N)
  (* every version on the chain has its object; a non-first one is the child of its predecessor *)
  /\ (forall k c, v_hist v !! k = Some c ->
        exists p, is_Some (v_vers v !! (p, c)) /\ (forall k', k = S k' -> v_hist v !! k' = Some p)
                  /\ (k = 0%nat -> p = 0%N))
  (* an id names at most one object *)
  /\ (forall p p' c, is_Some (v_vers v !! (p, c)) -> is_Some (v_vers v !! (p', c)) -> p = p')
  (* objects carry ids already handed out, hang below the nil version or a version that has
     been latest, and hold what was submitted under their id *)
  /\ (forall p c x, v_vers v !! (p, c) = Some x ->
        (0 < c)%N /\ (c < v_next v)%N /\ (p = 0%N \/ p ∈ v_hist v) /\ v_sub v !! c = Some (p, x.1))
  /\ (forall c x, v_sub v !! c = Some x -> (c < v_next v)%N).

Definition CInv (s : csys) : Prop :=
  Core (view s)
  /\ (forall i c, c_clients s !! i = Some c -> client_ok (view s) c)
  /\ (forall i j c c' x, i <> j -> c_clients s !! i = Some c -> c_clients s !! j = Some c' ->
        owned c = Some x -> owned c' = Some x -> False)
  /\ Forall (result_ok (view s)) (c_results s).
End Chain.

(** [p] is the predecessor of position [k], the nil version for the first *)
Definition link (h : list N) (k : nat) (p : N) : Prop :=
  (forall k', k = S k' -> h !! k' = Some p) /\ (k = 0%nat -> p = 0%N).

(** [Core] generalised by [cut]: chain versions at positions below [cut] may
    have lost their objects (cleanup, C10, removes them).  That an id names at
    most one object is not a field: it follows from [ci_vers]. *)
Record ChainInv (cut : nat) (v : cview) : Prop := {
  ci_latest : v_latest v = last (v_hist v);
  ci_nodup : NoDup (v_hist v);
  ci_hist_ids c : c ∈ v_hist v -> (0 < c)%N /\ (c < v_next v)%N;
  (* every chain version was submitted as the child of its predecessor, and
     from the cut onward its object is in the store *)
  ci_chain k c : v_hist v !! k = Some c ->
    exists p pl, v_sub v !! c = Some (p, pl) /\ link (v_hist v) k p
                 /\ ((cut <= k)%nat -> is_Some (v_vers v !! (p, c)));
  ci_vers p c x : v_vers v !! (p, c) = Some x ->
    (0 < c)%N /\ (c < v_next v)%N /\ (p = 0%N \/ p ∈ v_hist v) /\ v_sub v !! c = Some (p, x.1);
  ci_sub_ids c x : v_sub v !! c = Some x -> (c < v_next v)%N;
  ci_next : (0 < v_next v)%N
}.

Lemma Core_ChainInv v : Core v <-> ChainInv 0 v.
Proof.
  split.
  - intros (I1 & I2 & I3 & I4 & I5 & I6 & I7 & I8). split; auto.
    intros k c Hk. destruct (I5 k c Hk) as (p & [x Hx] & Hl). exists p, x.1.
    split; [apply (I7 _ _ _ Hx)|]. split; [exact Hl|eauto].
  - intros [J1 J2 J3 J4 J5 J6 J7]. split; [exact J1|]. split; [exact J2|]. split; [exact J7|]. split; [exact J3|].
    split; [|split; [|split; [exact J5|exact J6]]].
    + intros k c Hk. destruct (J4 k c Hk) as (p & pl & _ & Hl & Ho). exists p. split; [apply Ho; lia|exact Hl].
    + intros p p' c [x Hx] [x' Hx']. apply J5 in Hx as (_ & _ & _ & Hx), Hx' as (_ & _ & _ & Hx'). congruence.
Qed.

Lemma ChainInv_cut_mono cut cut' v : (cut <= cut')%nat -> ChainInv cut v -> ChainInv cut' v.
Proof.
  intros Hle [J1 J2 J3 J4 J5 J6 J7]. split; auto.
  intros k c Hk. destruct (J4 k c Hk) as (p & pl & Hs & Hl & Ho). exists p, pl. split; [exact Hs|]. split; [exact Hl|].
  intros Hc. apply Ho. lia.
Qed.

Lemma latest_in_hist cut v l : ChainInv cut v -> v_latest v = Some l -> l ∈ v_hist v.
Proof. intros HC H. rewrite (ci_latest _ _ HC), last_lookup in H. eapply elem_of_list_lookup_2. exact H. Qed.

Lemma same_parent_same_version cut v c1 c2 p pl1 pl2 :
  ChainInv cut v -> c1 ∈ v_hist v -> c2 ∈ v_hist v ->
  v_sub v !! c1 = Some (p, pl1) -> v_sub v !! c2 = Some (p, pl2) -> c1 = c2.
Proof.
  intros HC [k1 K1]%elem_of_list_lookup [k2 K2]%elem_of_list_lookup S1 S2.
  destruct (ci_chain _ _ HC k1 c1 K1) as (? & ? & E1 & [P1 Z1] & _), (ci_chain _ _ HC k2 c2 K2) as (? & ? & E2 & [P2 Z2] & _).
  rewrite S1 in E1. rewrite S2 in E2. injection E1 as <- <-. injection E2 as <- <-.
  (* the parent is the nil version, which is not on the chain, or sits at one position *)
  assert (forall k, v_hist v !! k = Some p -> (0 < p)%N) as Hpos
    by (intros k Hk; eapply (ci_hist_ids _ _ HC), elem_of_list_lookup_2, Hk).
  assert (k1 = k2) as -> ; [|congruence].
  destruct k1 as [|k1], k2 as [|k2]; [reflexivity| | |].
  - specialize (Z1 eq_refl). specialize (Hpos _ (P2 _ eq_refl)). lia.
  - specialize (Z2 eq_refl). specialize (Hpos _ (P1 _ eq_refl)). lia.
  - f_equal. eapply NoDup_lookup; [exact (ci_nodup _ _ HC)|apply P1|apply P2]; reflexivity.
Qed.

Definition set_vers (v : cview) (m : gmap (N * N) (N * N)) : cview :=
  {| v_latest := v_latest v; v_vers := m; v_hist := v_hist v; v_next := v_next v; v_sub := v_sub v |}.
Definition put_view (v : cview) (p c pl now : N) : cview := set_vers v (<[(p, c) := (pl, now)]> (v_vers v)).
Definition del_view (v : cview) (p c : N) : cview := set_vers v (delete (p, c) (v_vers v)).
Definition cas_view (v : cview) (c : N) : cview :=
  {| v_latest := Some c; v_vers := v_vers v; v_hist := v_hist v ++ [c]; v_next := v_next v; v_sub := v_sub v |}.
Definition start_view (v : cview) (p pl : N) : cview :=
  {| v_latest := v_latest v; v_vers := v_vers v; v_hist := v_hist v; v_next := (v_next v + 1)%N;
     v_sub := <[v_next v := (p, pl)]> (v_sub v) |}.

Lemma ChainInv_set_vers cut v m :
  ChainInv cut v ->
  (forall k c p, v_hist v !! k = Some c -> (cut <= k)%nat -> is_Some (v_vers v !! (p, c)) -> is_Some (m !! (p, c))) ->
  (forall p c x, m !! (p, c) = Some x ->
     v_vers v !! (p, c) = Some x \/ fresh_id v p c x.1) ->
  ChainInv cut (set_vers v m).
Proof.
  intros [J1 J2 J3 J4 J5 J6 J7] Hkeep Hnew. split; auto; cbn.
  - intros k c Hk. destruct (J4 k c Hk) as (p & pl & Hs & Hl & Ho). exists p, pl. eauto.
  - intros p c x [Hx|(F1 & F2 & _ & F4 & F5)]%Hnew; auto.
Qed.

Lemma ChainInv_put cut v p c pl now : ChainInv cut v -> fresh_id v p c pl -> ChainInv cut (put_view v p c pl now).
Proof.
  intros HC HF. apply ChainInv_set_vers; [exact HC| |].
  - intros k c0 p0 _ _ H. apply lookup_insert_is_Some'. right. exact H.
  - intros p0 c0 x [[[= <- <-] <-]|[_ Hx]]%lookup_insert_Some; [right; exact HF|left; exact Hx].
Qed.

Lemma ChainInv_del cut v p c :
  ChainInv cut v -> (forall k, v_hist v !! k = Some c -> (k < cut)%nat) -> ChainInv cut (del_view v p c).
Proof.
  intros HC Hc. apply ChainInv_set_vers; [exact HC| |].
  - intros k c0 p0 Hk Hle H. rewrite lookup_delete_ne; [exact H|]. intros [= _ ->]. apply Hc in Hk. lia.
  - intros p0 c0 x [_ Hx]%lookup_delete_Some. left. exact Hx.
Qed.

Lemma ChainInv_cas cut v p c :
  ChainInv cut v -> c ∉ v_hist v -> is_Some (v_vers v !! (p, c)) ->
  (forall l0, v_latest v = Some l0 -> l0 = p) ->
  ChainInv cut (cas_view v c).
Proof.
  intros [J1 J2 J3 J4 J5 J6 J7] F3 Hobj Hl. pose proof Hobj as [y (F1 & F2 & F5 & F4)%J5]. split; cbn; auto.
  - rewrite last_snoc. reflexivity.
  - apply NoDup_app. split; [exact J2|]. split; [|apply NoDup_singleton].
    intros x Hx ->%elem_of_list_singleton. exact (F3 Hx).
  - intros c0 [Hc0| ->%elem_of_list_singleton]%elem_of_app; auto.
  - intros k c0 [Hk'|[Hlen Hk']]%lookup_app_Some.
    + destruct (J4 k c0 Hk') as (p0 & pl0 & Hs & [P Z] & Ho). exists p0, pl0. split; [exact Hs|]. split; [|exact Ho].
      split; [|exact Z]. intros k' ->. apply lookup_app_l_Some. apply P. reflexivity.
    + (* the new link: [c] was submitted under [p], which the swap found to be latest, the last of the history *)
      apply list_lookup_singleton_Some in Hk' as [Hk' <-]. exists p, y.1. split; [exact F4|]. split; [|auto].
      assert (k = length (v_hist v)) as -> by lia. rewrite J1 in Hl. split.
      * intros k' Hk. apply lookup_app_l_Some. replace k' with (pred (length (v_hist v))) by lia.
        rewrite <- last_lookup. destruct (last (v_hist v)) as [l0|] eqn:El.
        -- rewrite (Hl l0 eq_refl). reflexivity.
        -- apply last_None in El. rewrite El in Hk. discriminate.
      * intros Hnil%nil_length_inv. rewrite Hnil in F5. destruct F5 as [F5|F5%elem_of_nil]; [exact F5|contradiction].
  - intros p0 c0 x Hx. destruct (J5 _ _ _ Hx) as (? & ? & [?|?] & ?); repeat split; auto.
    right. apply elem_of_app. auto.
Qed.

(** the next id has submitted nothing yet *)
Lemma start_keeps_sub cut v p pl c x :
  ChainInv cut v -> v_sub v !! c = Some x -> v_sub (start_view v p pl) !! c = Some x.
Proof. intros HI Hc. cbn. rewrite lookup_insert_ne; [exact Hc|]. intros <-. apply (ci_sub_ids _ _ HI) in Hc. lia. Qed.

Lemma ChainInv_start cut v p pl : ChainInv cut v -> ChainInv cut (start_view v p pl).
Proof.
  intros HI. pose proof (fun c x => start_keeps_sub cut v p pl c x HI) as Hsub. destruct HI as [J1 J2 J3 J4 J5 J6 J7].
  split; cbn in *; auto; try lia.
  - intros c Hc. destruct (J3 c Hc). lia.
  - intros k c Hk. destruct (J4 k c Hk) as (p0 & pl0 & Hs & Hl & Ho). exists p0, pl0. auto.
  - intros p0 c x Hx. destruct (J5 _ _ _ Hx) as (? & ? & ? & ?). repeat split; auto. lia.
  - intros c x [[<- _]|[_ Hc%J6]]%lookup_insert_Some; lia.
Qed.

(** what a request of the client that owns the id [x] leaves to the others *)
Definition touches (v v' : cview) (x : N) : Prop :=
  (forall p c, c <> x -> v_vers v' !! (p, c) = v_vers v !! (p, c))
  /\ (forall c, c ∈ v_hist v' -> c ∈ v_hist v \/ c = x)
  /\ (forall c, c ∈ v_hist v -> c ∈ v_hist v')
  /\ (v_next v <= v_next v')%N
  /\ (forall c y, v_sub v !! c = Some y -> v_sub v' !! c = Some y).

Lemma touches_refl v x : touches v v x.
Proof. repeat split; auto. Qed.
Lemma touches_set_vers v m x :
  (forall p c, c <> x -> m !! (p, c) = v_vers v !! (p, c)) -> touches v (set_vers v m) x.
Proof. intros H. repeat split; cbn; auto. Qed.
Lemma touches_put v p c pl now : touches v (put_view v p c pl now) c.
Proof. apply touches_set_vers. intros p' c' Hne. apply lookup_insert_ne. congruence. Qed.
Lemma touches_del v p c : touches v (del_view v p c) c.
Proof. apply touches_set_vers. intros p' c' Hne. apply lookup_delete_ne. congruence. Qed.
Lemma touches_cas v c : touches v (cas_view v c) c.
Proof. repeat split; cbn; auto; intros c'; rewrite elem_of_app, elem_of_list_singleton; auto. Qed.
Lemma touches_start cut v p pl : ChainInv cut v -> touches v (start_view v p pl) (v_next v).
Proof.
  intros HC. repeat split; cbn; auto; try lia. intros c y. apply (start_keeps_sub cut v p pl c y HC).
Qed.

(** the id a new add-version call takes *)
Lemma fresh_id_start cut v p pl :
  ChainInv cut v -> p = 0%N \/ p ∈ v_hist v ->
  fresh_id (start_view v p pl) p (v_next v) pl /\ forall p', v_vers v !! (p', v_next v) = None.
Proof.
  intros HI Hp. pose proof (ci_next _ _ HI) as Hpos. split.
  - split; [exact Hpos|]. split; [cbn; lia|].
    split; [intros Hin%(ci_hist_ids _ _ HI); lia|]. split; [apply lookup_insert|exact Hp].
  - intros p'. destruct (v_vers v !! (p', v_next v)) as [y|] eqn:Ev; [|reflexivity].
    destruct (ci_vers _ _ HI _ _ _ Ev) as (_ & Hlt & _). lia.
Qed.

Lemma fresh_id_other v v' x p c pl : touches v v' x -> c <> x -> fresh_id v p c pl -> fresh_id v' p c pl.
Proof.
  intros (T1 & T2 & T3 & T4 & T5) Hne (F1 & F2 & F3 & F4 & F5). repeat split; auto; try lia.
  - intros [Hin| ->]%T2; auto.
  - destruct F5; auto.
Qed.

Lemma client_ok_other v v' x c : touches v v' x -> owned c <> Some x -> client_ok v c -> client_ok v' c.
Proof.
  intros T Hown. pose proof T as (T1 & T2 & T3 & T4 & _).
  destruct c; cbn in *; try exact (fun H => H); try (assert (c <> x) as Hne by congruence).
  - intros [F Hn]. split; [eapply fresh_id_other; eauto|]. intros p'. rewrite T1 by exact Hne. apply Hn.
  - intros (F & Hn & Hl). split; [eapply fresh_id_other; eauto|]. split; [|exact Hl]. intros p'. rewrite T1 by exact Hne. apply Hn.
  - intros (F & Hu & He & Hl). split; [eapply fresh_id_other; eauto|]. rewrite T1 by exact Hne.
    split; [|auto]. intros p'. rewrite T1 by exact Hne. apply Hu.
  - intros (F1 & F2 & Hu). split; [lia|]. split.
    + intros [Hin| ->]%T2; auto.
    + intros p'. rewrite T1 by exact Hne. apply Hu.
  - auto.
  - intros (H1 & H2 & H3 & H4). auto 6.
  - auto.
Qed.

Lemma result_ok_mono v v' x r : touches v v' x -> result_ok v r -> result_ok v' r.
Proof.
  intros (_ & _ & T3 & _ & T5). unfold result_ok. destruct r.2; auto.
  - intros [H|H]; auto.
  - intros (p & H1 & H2 & H3). exists p. auto.
Qed.

Lemma resume_owned rank threshold c r x : owned (cl_resume rank threshold c r) = Some x -> owned c = Some x.
Proof.
  assert (forall p todo best, owned (next_scan p todo best) = None) as Hscan by (intros p [|] [|]; reflexivity).
  assert (forall vd, owned (after_k5 vd) = None) as H5 by (intros [|]; reflexivity).
  assert (forall sd vd, owned (after_k4 sd vd) = None) as H4 by (intros [|] vd; [apply H5|reflexivity]).
  assert (forall l vers dels, owned (after_k2 l vers dels) = None) as H2 by (intros l vers [|]; reflexivity).
  destruct c, r; cbn [cl_resume]; try discriminate; repeat case_match; rewrite ?Hscan, ?H5, ?H4, ?H2;
    try discriminate; exact (fun H => H).
Qed.

Lemma owned_lt v c x : client_ok v c -> owned c = Some x -> (x < v_next v)%N.
Proof. destruct c; cbn; try discriminate; intros H [= <-]; [destruct H as [(_ & H & _) _]..|destruct H as [H _]]; exact H. Qed.

Lemma strangers_next s i : CInv s -> strangers owned (c_clients s) i (c_next s).
Proof. intros (_ & Hcl & _) j cj _ Hj Ho. pose proof (owned_lt _ _ _ (Hcl _ _ Hj) Ho) as Hlt. cbn in Hlt. lia. Qed.

Section Run.
Variable rank : N -> N.
Variable pagesz : nat.
Variable threshold : N.
Notation cstep' := (cstep rank pagesz threshold).
Notation run evs := (fold_left cstep' evs csys0).

Definition view_after (s : csys) (st' : ostore) : cview :=
  {| v_latest := o_latest st'; v_vers := o_vers st'; v_hist := hist_after (c_store s) st' (c_hist s);
     v_next := c_next s; v_sub := c_sub s |}.

Lemma view_after_vers s st' :
  o_latest st' = o_latest (c_store s) -> view_after s st' = set_vers (view s) (o_vers st').
Proof. intros H1. unfold view_after, set_vers, hist_after. rewrite bool_decide_eq_true_2 by exact H1. rewrite H1. reflexivity. Qed.

(** what a machine that goes on, or the result of one that ends, must satisfy *)
Definition post (v : cview) (c c' : cpc) : Prop :=
  match c' with CDone r => result_ok v (c, r) | _ => client_ok v c' end.

Lemma next_scan_ok v c p todo best :
  Forall (fun c => (0 < c)%N) todo -> (forall b, best = Some b -> b ∈ v_hist v) ->
  post v c (next_scan p todo best).
Proof.
  intros Ht Hb. destruct todo as [|c2 rest]; [destruct best; cbn; auto|].
  inversion Ht; subst. cbn. repeat split; auto. discriminate.
Qed.

(** the one id a machine may touch is its own, if it has one; the next fresh
    id, which nobody holds, stands for none *)
Lemma step_client s i now c q :
  CInv s -> c_clients s !! i = Some c -> cl_next c = inl q ->
  let rs := ostore_step rank pagesz now (c_store s) q in
  let v' := view_after s rs.2 in
  Core v' /\ touches (view s) v' (default (c_next s) (owned c))
  /\ post v' c (cl_resume rank threshold c rs.1).
Proof.
  intros Hinv Hi Hq. pose proof Hinv as (HC & Hcl & _). pose proof (Hcl _ _ Hi) as Hok. cbn zeta.
  pose proof (proj1 (Core_ChainInv _) HC) as HI.
  (* a request that only reads *)
  assert (forall c', post (view s) c c' ->
            Core (view_after s (c_store s))
            /\ touches (view s) (view_after s (c_store s)) (default (c_next s) (owned c))
            /\ post (view_after s (c_store s)) c c') as Same.
  { intros c' Hp. rewrite view_after_vers by reflexivity. split; [exact HC|]. split; [apply touches_refl|exact Hp]. }
  assert (forall l0, o_latest (c_store s) = Some l0 -> l0 ∈ c_hist s) as Hlatest
    by (intros l0; apply (latest_in_hist 0 (view s) l0 HI)).
  destruct c; cbn in Hq; try discriminate; try (cbn in Hok; contradiction); injection Hq as <-.
  - (* A0: read latest *)
    apply Same. destruct Hok as [Hf Hn]. cbn.
    destruct (o_latest (c_store s)) as [l0|] eqn:El; [destruct (N.eqb_spec l0 p) as [->|Hne]|]; cbn; auto.
    + split; [exact Hf|]. split; [exact Hn|]. intros l0 [= <-]. reflexivity.
    + split; [exact Hf|]. split; [exact Hn|]. intros l0 [=].
  - (* A1: put the object *)
    destruct Hok as (Hf & Hn & Hl). rewrite view_after_vers by reflexivity.
    split; [apply Core_ChainInv, ChainInv_put; assumption|].
    split; [apply touches_put|].
    cbn. split; [exact Hf|]. split; [|split; [apply lookup_insert_is_Some; auto|exact Hl]].
    intros p' [[= ->]|[_ [y Hy]]]%lookup_insert_is_Some; [reflexivity|]. rewrite Hn in Hy. discriminate.
  - (* A2: the swap *)
    cbn [ostore_step]. destruct Hok as (Hf & Hu & He & Hl). pose proof Hf as (F1 & F2 & F3 & F4 & F5).
    case_bool_decide as Eb; cbn [fst snd]; [|apply Same; cbn; auto].
    assert (view_after s {| o_latest := Some c; o_vers := o_vers (c_store s); o_snaps := o_snaps (c_store s) |}
            = cas_view (view s) c) as ->.
    { unfold view_after, hist_after. cbn. rewrite bool_decide_eq_false_2; [reflexivity|].
      intros Heq. apply F3, Hlatest. symmetry. exact Heq. }
    split; [apply Core_ChainInv, (ChainInv_cas 0 _ p c); auto; cbn; intros l0; rewrite Eb; auto|].
    split; [apply touches_cas|].
    cbn. apply elem_of_app. right. apply elem_of_list_singleton. reflexivity.
  - (* A3: withdraw the object *)
    destruct Hok as (_ & F2 & _). rewrite view_after_vers by reflexivity.
    split; [apply Core_ChainInv, ChainInv_del; [exact HI|]; intros k Hk%elem_of_list_lookup_2; contradiction|].
    split; [apply touches_del|exact I].
  - (* A4: report the latest *)
    apply Same. cbn. destruct (o_latest (c_store s)) as [l0|] eqn:El; cbn; auto.
  - (* A5: snapshot urgency *)
    apply Same. exact Hok.
  - (* G0: list the children *)
    destruct (ver_page rank pagesz now (c_store s) (Some p) after) as (l & more & -> & Hpage).
    apply Same. cbn [fst cl_resume].
    assert (Forall (fun c => (0 < c)%N) (acc ++ map (fun x : N * N * N => x.1.2) l)) as Hacc.
    { apply Forall_app. split; [exact Hok|]. apply Forall_fmap, Forall_forall. intros [[xp xc] xt] Hx.
      destruct (Hpage _ Hx) as [[pl Hpl] _]. apply (ci_vers _ _ HI _ _ _ Hpl). }
    destruct more; [exact Hacc|]. destruct (acc ++ _) eqn:Ea; [exact I|exact Hacc].
  - (* G1: is the latest one of them? *)
    apply Same. cbn [ostore_step fst cl_resume].
    pose proof (next_scan_ok (view s) (G1 p children) p children None Hok) as Hscan.
    destruct (o_latest (c_store s)) as [l0|] eqn:El; [case_bool_decide|]; try (apply Hscan; discriminate).
    cbn. auto.
  - (* G2: does this child have children? *)
    destruct (ver_page rank pagesz now (c_store s) (Some cur) after) as (l & more & -> & Hpage).
    apply Same. cbn [fst cl_resume]. destruct Hok as (Ht & Hcur & Hne & Hbest).
    set (ne' := nonempty || match l with [] => false | _ => true end).
    (* the idea of get-child-version: a candidate with a child is on the chain, since every
       object hangs below the nil version or a version that has been latest ([ci_vers]) *)
    assert (ne' = true -> cur ∈ c_hist s) as Hne'.
    { intros [Hor|Hor]%orb_true_iff; [auto|]. destruct l as [|[[xp xc] xt] l']; [discriminate|].
      destruct (Hpage (xp, xc, xt)) as [[pl Hpl] Hp]; [left|]. cbn in Hp, Hpl. rewrite (Hp cur eq_refl) in Hpl.
      destruct (ci_vers _ _ HI _ _ _ Hpl) as (_ & _ & [H0|Hin] & _); [lia|exact Hin]. }
    destruct more; [cbn; auto|]. apply next_scan_ok; [exact Ht|].
    intros b. destruct ne'; [intros [= <-]; auto|apply Hbest].
  - (* G3: fetch the version *)
    apply Same. cbn [ostore_step fst cl_resume].
    destruct (o_vers (c_store s) !! (p, c)) as [[pl t]|] eqn:Ev; cbn; [|exact I].
    exists p. split; [reflexivity|]. split; [exact Hok|]. apply (ci_vers _ _ HI _ _ _ Ev).
  - (* S0: store a snapshot *)
    apply Same. exact I.
  - (* T0, T1: get-snapshot *)
    destruct (snap_page rank pagesz now (c_store s) None) as (l & more & -> & _). apply Same. destruct l; exact I.
  - apply Same. cbn. destruct (o_snaps (c_store s) !! v); exact I.
Qed.

(** client [i] has moved, touching at most the id [x], and goes on as [oc] or
    is gone; [res] are the results that came in *)
Lemma CInv_update s s' i oc x res :
  c_clients s' = partial_alter (fun _ => oc) i (c_clients s) -> c_results s' = res ++ c_results s ->
  CInv s -> Core (view s') -> touches (view s) (view s') x -> strangers owned (c_clients s) i x ->
  Forall (result_ok (view s')) res ->
  (forall c', oc = Some c' -> client_ok (view s') c' /\ forall y, owned c' = Some y -> strangers owned (c_clients s) i y) ->
  CInv s'.
Proof.
  intros Ecl Eres (_ & Hcl & Hown & Hres) HC' HT Hx Hres' Hoc. split; [exact HC'|]. rewrite Ecl, Eres.
  destruct (clients_update owned (client_ok (view s')) (c_clients s) i oc Hown) as [H1 H2]; [|exact Hoc|].
  - intros j cj Hne Hj. eapply client_ok_other; eauto.
  - split; [exact H1|]. split; [exact H2|]. apply Forall_app. split; [exact Hres'|].
    eapply Forall_impl; [exact Hres|]. intros r. apply result_ok_mono with x, HT.
Qed.

Lemma CInv_init : CInv csys0.
Proof.
  split; [apply Core_ChainInv; split; cbn; try done; [constructor|intros c []%elem_of_nil]|].
  split; [intros i c [=]|]. split; [intros i j c c' x _ [=]|constructor].
Qed.

Theorem CInv_step s e : CInv s -> CInv (cstep' s e).
Proof.
  intros Hinv. pose proof Hinv as (HC & Hcl & Hown & _). pose proof (proj1 (Core_ChainInv _) HC) as HI.
  assert (forall i c, client_ok (view s) c -> owned c = None ->
            CInv match c_clients s !! i with None => with_clients s (<[i := c]> (c_clients s)) | Some _ => s end) as Hstart.
  { intros i c Hok Ho. destruct (c_clients s !! i) eqn:Hi; [exact Hinv|].
    apply (CInv_update s _ i (Some c) (c_next s) []); [reflexivity|reflexivity|auto using touches_refl, strangers_next, Forall_nil_2..].
    intros c' [= <-]. split; [exact Hok|]. intros y. rewrite Ho. discriminate. }
  assert (forall i c, c_clients s !! i = Some c -> strangers owned (c_clients s) i (default (c_next s) (owned c))) as Hmine.
  { intros i c Hi. destruct (owned c) as [x|] eqn:Eo; [exact (strangers_mine owned _ i c x Hown Hi Eo)|apply strangers_next, Hinv]. }
  destruct e as [i p pl|i p|i v pl|i|i now|i|i now]; cbn [cstep].
  - (* a new add-version call takes the next id *)
    destruct (c_clients s !! i) eqn:Hi; [exact Hinv|]. case_bool_decide as Ep; [|exact Hinv].
    apply (CInv_update s _ i (Some (A0 p (c_next s) pl)) (c_next s) []); [reflexivity|reflexivity|exact Hinv|..].
    + apply Core_ChainInv, (ChainInv_start 0 (view s) p pl HI).
    + apply (touches_start 0 (view s) p pl HI).
    + apply strangers_next, Hinv.
    + constructor.
    + intros c' [= <-]. split; [|intros y [= <-]; apply strangers_next, Hinv].
      exact (fresh_id_start 0 (view s) p pl HI Ep).
  - apply Hstart; [constructor|reflexivity].
  - apply Hstart; [exact I|reflexivity].
  - apply Hstart; [exact I|reflexivity].
  - destruct (c_clients s !! i) as [c|] eqn:Hi; [|exact Hinv].
    destruct (cl_next c) as [q|r0] eqn:Hq; [|exact Hinv].
    pose proof (step_client s i now c q Hinv Hi Hq) as (HC' & HT & Hpost).
    destruct (ostore_step rank pagesz now (c_store s) q) as [r st'] eqn:Er. cbn [fst snd] in *.
    set (c' := cl_resume rank threshold c r) in *.
    apply (CInv_update s _ i (match c' with CDone _ => None | _ => Some c' end) (default (c_next s) (owned c))
             (match c' with CDone r0 => [(c, r0)] | _ => [] end));
      [| |exact Hinv|exact HC'|exact HT|exact (Hmine i c Hi)| |].
    + destruct c'; reflexivity.
    + destruct c'; reflexivity.
    + destruct c'; repeat constructor. exact Hpost.
    + intros c0 Hc0. assert (c0 = c' /\ post (view_after s st') c c0) as [-> Hp] by (destruct c'; inversion Hc0; auto).
      split; [destruct c'; try exact Hp; discriminate|].
      intros y Hy%resume_owned. exact (strangers_mine owned _ i c y Hown Hi Hy).
  - apply (CInv_update s _ i None (c_next s) []); [reflexivity|reflexivity|auto using touches_refl, strangers_next, Forall_nil_2..].
    intros c' [=].
  - (* request performed, reply lost, client gone *)
    destruct (c_clients s !! i) as [c|] eqn:Hi; [|exact Hinv].
    destruct (cl_next c) as [q|r0] eqn:Hq; [|exact Hinv].
    pose proof (step_client s i now c q Hinv Hi Hq) as (HC' & HT & _).
    destruct (ostore_step rank pagesz now (c_store s) q) as [r st'] eqn:Er. cbn [fst snd] in *.
    apply (CInv_update s _ i None (default (c_next s) (owned c)) []); [reflexivity|reflexivity|auto using Forall_nil_2..]. intros c' [=].
Qed.

(** The invariant holds in every state reachable by any schedule of any number
    of clients, with any failures. *)
Theorem CInv_run (evs : list cev) : CInv (fold_left cstep' evs csys0).
Proof.
  generalize CInv_init. generalize csys0. induction evs as [|e evs IH]; intros s Hs; [exact Hs|].
  apply IH, CInv_step, Hs.
Qed.

Lemma hist_after_prefix st st' h : h `prefix_of` hist_after st st' h.
Proof.
  unfold hist_after. case_bool_decide; [reflexivity|].
  destruct (o_latest st'); [apply prefix_app_r|]; reflexivity.
Qed.

Lemma step_grows s e :
  c_hist s `prefix_of` c_hist (cstep' s e)
  /\ (forall x, x ∈ c_results s -> x ∈ c_results (cstep' s e)).
Proof.
  assert (c_hist s `prefix_of` c_hist s /\ (forall x, x ∈ c_results s -> x ∈ c_results s)) as Hsame by done.
  destruct e as [i p pl|i p|i v pl|i|i now|i|i now]; cbn [cstep];
    [repeat case_match; exact Hsame..| |exact Hsame|].
  - destruct (c_clients s !! i) as [c|]; [|exact Hsame]. destruct (cl_next c); [|exact Hsame].
    destruct (ostore_step _ _ _ _ _) as [r st']. cbn. split; [apply hist_after_prefix|].
    intros x Hx. case_match; try exact Hx. right. exact Hx.
  - destruct (c_clients s !! i) as [c|]; [|exact Hsame]. destruct (cl_next c); [|exact Hsame].
    destruct (ostore_step _ _ _ _ _) as [r st']. cbn. split; [apply hist_after_prefix|auto].
Qed.

Lemma run_grows evs more :
  c_hist (run evs) `prefix_of` c_hist (run (evs ++ more))
  /\ (forall x, x ∈ c_results (run evs) -> x ∈ c_results (run (evs ++ more))).
Proof.
  rewrite fold_left_app. generalize (run evs) as s. induction more as [|e more IH]; intros s; cbn; [done|].
  destruct (step_grows s e) as [H1 H2], (IH (cstep' s e)) as [H3 H4].
  split; [etrans; eauto|auto].
Qed.

(** At most one child per parent is ever accepted: two versions on the chain
    stored under the same parent are the same version. *)
Theorem one_child_per_parent evs p c1 c2 :
  let s := run evs in
  c1 ∈ c_hist s -> c2 ∈ c_hist s ->
  is_Some (o_vers (c_store s) !! (p, c1)) -> is_Some (o_vers (c_store s) !! (p, c2)) -> c1 = c2.
Proof.
  cbn zeta. intros H1 H2 [x1 O1] [x2 O2].
  pose proof (proj1 (Core_ChainInv _) (proj1 (CInv_run evs))) as HI.
  apply (ci_vers _ _ HI) in O1 as (_ & _ & _ & O1), O2 as (_ & _ & _ & O2).
  exact (same_parent_same_version 0 _ c1 c2 p _ _ HI H1 H2 O1 O2).
Qed.

(** A client that was told its version was accepted finds it on the chain in
    every later state. *)
Theorem accepted_stays_on_chain evs more pc c u :
  (pc, CAddOk c u) ∈ c_results (run evs) -> c ∈ c_hist (run (evs ++ more)).
Proof.
  intros H%(run_grows evs more). pose proof (CInv_run (evs ++ more)) as (_ & _ & _ & Hres).
  exact (proj1 (Forall_forall _ _) Hres _ H).
Qed.

(** What get-child-version returns is the chain child of the requested parent
    -- never a version that lost the race -- and carries exactly the bytes that
    were submitted under that id, although its reads happen at different times. *)
Theorem served_is_chain_child evs pc c pl :
  let s := run evs in
  (pc, CVersion c pl) ∈ c_results s ->
  exists p k, pc = G3 p c /\ c_sub s !! c = Some (p, pl)
              /\ c_hist s !! k = Some c
              /\ (forall k', k = S k' -> c_hist s !! k' = Some p) /\ (k = 0%nat -> p = 0%N).
Proof.
  cbn zeta. intros H. pose proof (CInv_run evs) as (HI%Core_ChainInv & _ & _ & Hres).
  destruct (proj1 (Forall_forall _ _) Hres _ H) as (p & Hpc & [k Hk]%elem_of_list_lookup & Hsub). cbn in Hpc. subst pc.
  destruct (ci_chain _ _ HI k c Hk) as (p0 & pl0 & Hs & Hl & _). cbn in Hs, Hsub. rewrite Hsub in Hs. injection Hs as <- <-.
  exists p, k. auto.
Qed.

(** A rejection names the nil version or a version that has been the latest. *)
Theorem expected_was_latest evs pc l :
  (pc, CExpected l) ∈ c_results (run evs) -> l = 0%N \/ l ∈ c_hist (run evs).
Proof.
  intros H. pose proof (CInv_run evs) as (_ & _ & _ & Hres).
  exact (proj1 (Forall_forall _ _) Hres _ H).
Qed.

(** the premises are satisfiable: two clients race for the first version, one
    wins, the other is rejected naming the winner, and a reader is served the
    winner *)
Example race_example :
  let evs := [VStartAdd 0 0 7; VStartAdd 1 0 8; VStep 0 1; VStep 1 1; VStep 0 1; VStep 1 1;
              VStep 0 1; VStep 1 1; VStep 1 1; VStep 1 1; VStep 0 1;
              VStartGet 2 0; VStep 2 1; VStep 2 1; VStep 2 1] in
  let s := fold_left (cstep (fun x => x) 2 0) evs csys0 in
  c_hist s = [1%N]
  /\ map snd (c_results s) = [CVersion 1 7; CAddOk 1 true; CExpected 1].
Proof. vm_compute. split; reflexivity. Qed.
End Run.
