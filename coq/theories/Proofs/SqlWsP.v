(** The working-set table of the SQLite storage (rows id -> uuid, vector length
    MAX(id)+1) refines the specification's normalised vector, for every table (C16). *)
From TC Require Import Model.SqlStore Proofs.StorageP.

Definition wmax (m : gmap nat N) : nat := map_fold (fun k _ acc => Nat.max k acc) 0 m.

Lemma ws_next_wmax m : ws_next m = S (wmax m).
Proof. reflexivity. Qed.

Lemma wmax_spec m :
  (forall k, is_Some (m !! k) -> (k <= wmax m)%nat)
  /\ (wmax m = 0%nat \/ is_Some (m !! wmax m)).
Proof.
  unfold wmax. apply (map_fold_ind (fun r m => (forall k, is_Some (m !! k) -> (k <= r)%nat)
                                               /\ (r = 0%nat \/ is_Some (m !! r)))).
  - split; [|left; reflexivity]. intros k [x H]. rewrite lookup_empty in H. discriminate.
  - intros i x m0 r Hi [H1 H2]. split.
    + intros k Hk. destruct (decide (k = i)) as [->|Hne]; [lia|].
      rewrite lookup_insert_ne in Hk by congruence. apply H1 in Hk. lia.
    + destruct (Nat.max_spec i r) as [[Hlt ->]|[Hle ->]].
      * destruct H2 as [->|H2]; [lia|]. right. rewrite lookup_insert_ne by lia. exact H2.
      * right. rewrite lookup_insert. eauto.
Qed.

Lemma ws_vector_length m : length (ws_vector m) = S (wmax m).
Proof. unfold ws_vector. rewrite map_length, seq_length. reflexivity. Qed.

Lemma ws_vector_lookup m i : (i <= wmax m)%nat -> ws_vector m !! i = Some (m !! i).
Proof.
  intros Hi. unfold ws_vector. rewrite list_lookup_fmap, ws_next_wmax.
  rewrite lookup_seq_lt by lia. reflexivity.
Qed.

(** [v] lists the rows of [m]: position [k] holds the uuid of row [k]; a blank
    and a position past the end both stand for no row *)
Definition lists_rows (v : list (option N)) (m : gmap nat N) : Prop :=
  forall k, v !! k ≫= id = m !! k.

Lemma lists_rows_insert v m i x :
  lists_rows v m -> (i < length v)%nat -> lists_rows (<[i := x]> v) (partial_alter (fun _ => x) i m).
Proof.
  intros H Hi k. destruct (decide (k = i)) as [->|Hne].
  - rewrite list_lookup_insert, lookup_partial_alter by exact Hi. reflexivity.
  - rewrite list_lookup_insert_ne, lookup_partial_alter_ne by congruence. apply H.
Qed.

Lemma lists_rows_snoc v m u : lists_rows v m -> lists_rows (v ++ [Some u]) (<[length v := u]> m).
Proof.
  intros H k. destruct (Nat.lt_total k (length v)) as [Hk|[->|Hk]].
  - rewrite lookup_app_l, lookup_insert_ne by lia. apply H.
  - rewrite lookup_app_r, Nat.sub_diag, lookup_insert by lia. reflexivity.
  - rewrite lookup_insert_ne, <- H, !lookup_ge_None_2 by (rewrite ?app_length; cbn; lia). reflexivity.
Qed.

Lemma ws_vector_lists_rows m : lists_rows (ws_vector m) m.
Proof.
  intros k. destruct (decide (k <= wmax m)%nat) as [Hk|Hk].
  - rewrite ws_vector_lookup by exact Hk. reflexivity.
  - rewrite lookup_ge_None_2 by (rewrite ws_vector_length; lia).
    destruct (m !! k) eqn:E; [|reflexivity]. exfalso. apply Hk, wmax_spec. eauto.
Qed.

(** the vector of a table is in normal form: it ends with the row of the largest id *)
Lemma ws_vector_normal m :
  exists tl, ws_vector m = m !! 0%nat :: tl /\ strip_trailing_none tl = tl.
Proof.
  unfold ws_vector. rewrite ws_next_wmax. cbn [seq map]. eexists. split; [reflexivity|].
  destruct (wmax_spec m) as [_ [->|[u Hu]]]; [reflexivity|]. destruct (wmax m) as [|n]; [reflexivity|].
  apply (strip_ends_some _ u). rewrite fmap_last, seq_S, last_snoc. cbn. f_equal. exact Hu.
Qed.

(** the file's workhorse: both sides are in normal form ([ws_vector_normal]) and
    hold the same rows, so they are equal ([strip_ext]) *)
Theorem ws_vector_unique m v : lists_rows v m -> ws_vector m = normalize_ws v.
Proof.
  intros Hv. destruct v as [|x tl].
  { assert (m = ∅) as -> by (apply map_empty; intros k; symmetry; apply Hv). reflexivity. }
  destruct (ws_vector_normal m) as (tl' & E & Hn). pose proof (ws_vector_lists_rows m) as Hm.
  rewrite E in *. cbn [normalize_ws]. f_equal.
  - specialize (Hv 0%nat). symmetry. exact Hv.
  - rewrite <- Hn. apply strip_ext. intros k. exact (eq_trans (Hm (S k)) (eq_sym (Hv (S k)))).
Qed.

Theorem ws_add m u :
  ws_vector (<[ws_next m := u]> m) = ws_vector m ++ [Some u].
Proof.
  rewrite (ws_vector_unique _ (ws_vector m ++ [Some u])).
  - cbn. f_equal.
    apply (strip_ends_some _ u), last_snoc.
  - rewrite ws_next_wmax, <- ws_vector_length. apply lists_rows_snoc, ws_vector_lists_rows.
Qed.

(** also when the last row goes and the vector shrinks to the largest remaining id *)
Theorem ws_set m i x :
  (i < ws_next m)%nat ->
  ws_vector (match x with Some u => <[i := u]> m | None => delete i m end)
  = normalize_ws (<[i := x]> (ws_vector m)).
Proof.
  intros Hi. rewrite ws_next_wmax, <- ws_vector_length in Hi. apply ws_vector_unique.
  replace (match x with Some u => <[i := u]> m | None => delete i m end)
    with (partial_alter (fun _ => x) i m) by (destruct x; reflexivity).
  apply lists_rows_insert; [apply ws_vector_lists_rows|exact Hi].
Qed.

Theorem ws_clear : ws_vector (∅ : gmap nat N) = [None].
Proof. reflexivity. Qed.

Lemma strip_all_none k : strip_trailing_none (replicate k (None : option N)) = [].
Proof. exact (strip_app_nones [] k). Qed.

Lemma absq_ws q w : absq (upd q (q_tasks q) (q_base q) (q_ops q) w) = set_ws (absq q) (ws_vector w).
Proof. reflexivity. Qed.

Theorem add_to_working_set_refines q u n q' :
  q_add_to_working_set q u = Some (n, q') ->
  add_to_working_set (absq q) u = (n, absq q') /\ (q_ws q !! 0%nat = None -> q_ws q' !! 0%nat = None).
Proof.
  unfold q_add_to_working_set, rw_guard. destruct (q_readonly q); [discriminate|]. intros [= <- <-].
  split.
  - unfold add_to_working_set. rewrite absq_ws, ws_add. f_equal.
    cbn [absq st_ws]. rewrite ws_vector_length. reflexivity.
  - intros H0. cbn. rewrite lookup_insert_ne by (rewrite ws_next_wmax; lia). exact H0.
Qed.

Theorem set_working_set_item_refines q i x q' :
  q_ws q !! 0%nat = None -> (1 <= i)%nat -> (i < length (st_ws (absq q)))%nat ->
  q_set_working_set_item q i x = Some (tt, q') ->
  set_working_set_item (absq q) i x = Some (absq q') /\ q_ws q' !! 0%nat = None.
Proof.
  intros H0 H1 Hi. unfold q_set_working_set_item, rw_guard.
  destruct (q_readonly q); [discriminate|]. intros [= <-].
  split.
  - unfold set_working_set_item. rewrite (proj2 (Nat.ltb_lt _ _) Hi), absq_ws.
    cbn [absq st_ws] in *. rewrite ws_vector_length in Hi. rewrite ws_set by exact Hi. reflexivity.
  - cbn. destruct x; [rewrite lookup_insert_ne by lia|rewrite lookup_delete_ne by lia]; exact H0.
Qed.

Theorem clear_working_set_refines q q' :
  q_clear_working_set q = Some (tt, q') ->
  clear_working_set (absq q) = absq q' /\ q_ws q' !! 0%nat = None.
Proof.
  unfold q_clear_working_set, rw_guard. destruct (q_readonly q); [discriminate|]. intros [= <-].
  split; [reflexivity|]. cbn. apply lookup_empty.
Qed.
