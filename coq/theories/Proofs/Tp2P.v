(** TP2 for [transform] on operations valid in a common state, its lifting to
    lists (the cube), and with it the independence of the order in which any
    number of replicas synchronise; three replicas as the case in point (C03). *)
From TC Require Import Model.Rebase Proofs.TransformP Proofs.RebaseP Proofs.ConflictP.

(** [transform] on operations that may already have been dropped: what is gone
    lets the other pass.  Lemmas named [_ol] are about such zero-or-one-element
    lists ([option_list]). *)
Definition tfo (x y : option sop) : option sop * option sop :=
  match x, y with Some a, Some b => transform a b | _, _ => (x, y) end.

Lemma tv_ltb_trans t1 v1 t2 v2 t3 v3 :
  tv_ltb t1 v1 t2 v2 = true -> tv_ltb t2 v2 t3 v3 = true -> tv_ltb t1 v1 t3 v3 = true.
Proof.
  unfold tv_ltb.
  intros [H1%Z.ltb_lt|[->%Z.eqb_eq H1]%andb_true_iff]%orb_true_iff
         [H2%Z.ltb_lt|[->%Z.eqb_eq H2]%andb_true_iff]%orb_true_iff; apply orb_true_iff.
  1-3: left; apply Z.ltb_lt; lia.
  right. rewrite Z.eqb_refl.
  destruct v1, v2, v3; cbn in *; try congruence. apply N.ltb_lt. apply N.ltb_lt in H1, H2. lia.
Qed.

Lemma tv_total t1 v1 t2 v2 :
  (ov_eqb v1 v2 && Z.eqb t1 t2 = true) \/ tv_ltb t1 v1 t2 v2 = true \/ tv_ltb t2 v2 t1 v1 = true.
Proof.
  destruct (ov_eqb v1 v2 && Z.eqb t1 t2) eqn:E; [left; reflexivity|right].
  rewrite (tv_ltb_antisym _ _ _ _ E). destruct (tv_ltb t1 v1 t2 v2); auto.
Qed.

Lemma tv_leb_trans t1 v1 t2 v2 t3 v3 :
  tv_leb t1 v1 t2 v2 = true -> tv_leb t2 v2 t3 v3 = true -> tv_leb t1 v1 t3 v3 = true.
Proof.
  unfold tv_leb.
  intros [[->%ov_eqb_eq ->%Z.eqb_eq]%andb_true_iff|H1]%orb_true_iff; [auto|].
  intros [[<-%ov_eqb_eq <-%Z.eqb_eq]%andb_true_iff|H2]%orb_true_iff; apply orb_true_iff; right;
    [exact H1|exact (tv_ltb_trans _ _ _ _ _ _ H1 H2)].
Qed.

(** Among operations valid in a common state, being absorbed is transitive:
    a creation or deletion is only absorbed by its like, an update by a
    deletion or by a greater or equal update of the same property. *)
Lemma absorbed_trans s a b c :
  validb s a = true -> validb s b = true -> validb s c = true ->
  absorbed c b = true -> absorbed b a = true -> absorbed c a = true.
Proof.
  intros Ha Hb Hc Hcb Hba.
  pose proof (absorbed_same_task _ _ Hcb) as Ecb. pose proof (absorbed_same_task _ _ Hba) as Eba.
  destruct a as [u|u|u pa va ta], b as [ub|ub|ub pb vb tb], c as [uc|uc|uc pc vc tc];
    cbn in *; subst; try discriminate.
  all: try assumption; try (destruct (s !! u); discriminate).
  apply andb_true_iff in Hcb as [[_ ->%N.eqb_eq]%andb_true_iff Hcb].
  apply andb_true_iff in Hba as [[_ ->%N.eqb_eq]%andb_true_iff Hba].
  rewrite !N.eqb_refl. exact (tv_leb_trans _ _ _ _ _ _ Hcb Hba).
Qed.

(** [c] carried past [a] and then past what is left of [b]: [c] is lost to [a],
    or to [b] if [b] survived [a] *)
Lemma tfo_transform c a b :
  (tfo (transform c a).1 (transform b a).1).1 =
  if absorbed c a || negb (absorbed b a) && absorbed c b then None else Some c.
Proof.
  rewrite !transform_spec. cbn [fst].
  destruct (absorbed c a), (absorbed b a); cbn [tfo fst orb andb negb]; try reflexivity.
  rewrite transform_spec. reflexivity.
Qed.

Lemma tp2 s a b c :
  validb s a = true -> validb s b = true -> validb s c = true ->
  (tfo (transform c a).1 (transform b a).1).1 = (tfo (transform c b).1 (transform a b).1).1.
Proof.
  (* the two sides differ only if [c] survives one of [a], [b] but is lost to
     the other, which itself is lost to the first: transitivity forbids it *)
  intros Ha Hb Hc. rewrite !tfo_transform.
  pose proof (absorbed_trans s a b c Ha Hb Hc) as Ta.
  pose proof (absorbed_trans s b a c Hb Ha Hc) as Tb.
  destruct (absorbed c a), (absorbed c b), (absorbed b a), (absorbed a b);
    try reflexivity; discriminate (Ta eq_refl eq_refl) || discriminate (Tb eq_refl eq_refl).
Qed.

(** [res l v]: the list [l] carried past the list [v] ("l after v") *)
Definition res (l v : list sop) : list sop := (rebase' v l).2.

Lemma rebase_res v l : rebase' v l = (res v l, res l v).
Proof.
  unfold res. rewrite (rebase_symmetric l v). destruct (rebase' v l) as [a b]. reflexivity.
Qed.

Lemma res_nil_r l : res l [] = l.
Proof. reflexivity. Qed.
Lemma res_nil_l v : res [] v = [].
Proof. unfold res. rewrite rebase_nil_r. reflexivity. Qed.

Lemma rebase_app v1 : forall v2 l,
  rebase' (v1 ++ v2) l =
  let '(v1', l1) := rebase' v1 l in
  let '(v2', l2) := rebase' v2 l1 in (v1' ++ v2', l2).
Proof.
  induction v1 as [|so v1 IH]; intros v2 l.
  - cbn. destruct (rebase' v2 l). reflexivity.
  - cbn [app]. rewrite !rebase_cons. destruct (rebase_one' (Some so) l) as [r l1].
    rewrite IH. destruct (rebase' v1 l1) as [v1' l2]. destruct (rebase' v2 l2).
    destruct r; reflexivity.
Qed.

Lemma res_app_r l v1 v2 : res l (v1 ++ v2) = res (res l v1) v2.
Proof.
  unfold res. rewrite rebase_app. destruct (rebase' v1 l) as [a b]. cbn.
  destruct (rebase' v2 b). reflexivity.
Qed.

Lemma res_app_l v1 v2 l : res (v1 ++ v2) l = res v1 l ++ res v2 (res l v1).
Proof.
  pose proof (rebase_app v1 v2 l) as H. rewrite (rebase_res (v1 ++ v2) l), (rebase_res v1 l) in H.
  rewrite (rebase_res v2 (res l v1)) in H. injection H as H _. exact H.
Qed.

Lemma res_valid s l v :
  valid_seqb s v = true -> valid_seqb s l = true ->
  valid_seqb (applyl s v) (res l v) = true
  /\ applyl (applyl s l) (res v l) = applyl (applyl s v) (res l v).
Proof.
  intros Hv Hl. pose proof (rebase_diamond v l s Hv Hl) as D. rewrite rebase_res in D.
  destruct D as (D1 & D2 & D3). auto.
Qed.

Lemma res_ol (x y : option sop) : res (option_list x) (option_list y) = option_list (tfo x y).1.
Proof.
  destruct x as [c|], y as [a|]; [|reflexivity|apply res_nil_l|reflexivity].
  unfold res. cbn. rewrite (transform_symmetric c a). destruct (transform c a) as [c' a']. cbn.
  reflexivity.
Qed.

(** carrying [z] past [x] and [y] in either order *)
Definition cube (x y z : list sop) : Prop := res (res z x) (res y x) = res (res z y) (res x y).

Lemma cube_sym x y z : cube x y z -> cube y x z.
Proof. unfold cube. intros H. symmetry. exact H. Qed.

Lemma cube_nil_x y z : cube [] y z.
Proof. unfold cube. rewrite !res_nil_r, res_nil_l, res_nil_r. reflexivity. Qed.

Lemma cube_nil_z x y : cube x y [].
Proof. unfold cube. rewrite !res_nil_l. reflexivity. Qed.

Lemma cube_app_x x1 x2 y z :
  cube x1 y z -> cube x2 (res y x1) (res z x1) -> cube (x1 ++ x2) y z.
Proof.
  unfold cube. intros C1 C2.
  rewrite !res_app_r, C2, res_app_l, res_app_r, <- C1. reflexivity.
Qed.

(** [z2] meets [x] and [y] after both have passed [z1]: besides the cube for
    [z1] this takes the cubes with [z1] in the other two places, which say that
    passing [z1] commutes with [x] and [y] passing each other *)
Lemma cube_app_z x y z1 z2 :
  cube x y z1 -> cube x z1 y -> cube y z1 x -> cube (res x z1) (res y z1) z2 ->
  cube x y (z1 ++ z2).
Proof.
  unfold cube. intros C1 C2 C3 C4.
  rewrite !res_app_l, C1. f_equal. rewrite C2, C3. exact C4.
Qed.

Lemma cube_ol s a b c :
  valido s a = true -> valido s b = true -> valido s c = true -> cube (option_list a) (option_list b) (option_list c).
Proof.
  intros Ha Hb Hc.
  destruct a as [a|]; [|apply cube_nil_x].
  destruct b as [b|]; [|apply cube_sym, cube_nil_x].
  destruct c as [c|]; [|apply cube_nil_z].
  unfold cube. rewrite !res_ol. f_equal. apply (tp2 s); assumption.
Qed.

Lemma res_valid_1 s l z :
  validb s z = true -> valid_seqb s l = true -> valid_seqb (apply s z) (res l [z]) = true.
Proof. intros Hz Hl. apply (res_valid s l [z]); [cbn; rewrite Hz; reflexivity|exact Hl]. Qed.

Lemma res_ol_valid s a z :
  validb s z = true -> valido s a = true -> valido (apply s z) (tfo a (Some z)).1 = true.
Proof.
  intros Hz Ha. destruct a as [a|]; [|reflexivity].
  pose proof (tp1 s a z Ha Hz) as T. cbn [tfo]. destruct (transform a z). apply T.
Qed.

(** The cube for lists, one list at a time: [z] against at most one operation
    on each side, then [y], then [x]. *)
Lemma cube_ol_ol z : forall s a b,
  valido s a = true -> valido s b = true -> valid_seqb s z = true -> cube (option_list a) (option_list b) z.
Proof.
  induction z as [|z1 z2 IH]; intros s a b Ha Hb Hz; [apply cube_nil_z|].
  cbn [valid_seqb] in Hz. apply andb_true_iff in Hz as [Hz1 Hz2].
  apply (cube_app_z _ _ [z1] z2).
  - apply (cube_ol s a b (Some z1)); assumption.
  - apply (cube_ol s a (Some z1) b); assumption.
  - apply (cube_ol s b (Some z1) a); assumption.
  - rewrite !(res_ol _ (Some z1)). apply (IH (apply s z1)); auto using res_ol_valid.
Qed.

Lemma cube_ol_x y : forall s a z,
  valido s a = true -> valid_seqb s y = true -> valid_seqb s z = true -> cube (option_list a) y z.
Proof.
  induction y as [|y1 y2 IH]; intros s a z Ha Hy Hz; [apply cube_sym, cube_nil_x|].
  cbn [valid_seqb] in Hy. apply andb_true_iff in Hy as [Hy1 Hy2].
  apply cube_sym, (cube_app_x [y1] y2).
  - apply cube_sym, (cube_ol_ol z s a (Some y1)); assumption.
  - rewrite (res_ol _ (Some y1)).
    apply cube_sym, (IH (apply s y1)); auto using res_ol_valid, res_valid_1.
Qed.

Lemma cube_lists x : forall s y z,
  valid_seqb s x = true -> valid_seqb s y = true -> valid_seqb s z = true -> cube x y z.
Proof.
  induction x as [|x1 x2 IH]; intros s y z Hx Hy Hz; [apply cube_nil_x|].
  cbn [valid_seqb] in Hx. apply andb_true_iff in Hx as [Hx1 Hx2].
  apply (cube_app_x [x1] x2).
  - apply (cube_ol_x y s (Some x1)); assumption.
  - apply (IH (apply s x1)); auto using res_valid_1.
Qed.

Theorem cube_all n : forall s x y z,
  length x + length y + length z <= n ->
  valid_seqb s x = true -> valid_seqb s y = true -> valid_seqb s z = true ->
  cube x y z.
Proof. intros s x y z _. apply cube_lists. Qed.

(** the state after replicas with pending lists [x], [y], [z] (all made from
    [s]) have synchronised in this order: the chain holds [x], then [y]
    rebased over it, then [z] rebased over both *)
Definition sync3 (s : db) (x y z : list sop) : db :=
  applyl (applyl (applyl s x) (res y x)) (res (res z x) (res y x)).

(** Any number of replicas, their lists all made from one state, in the
    residual algebra (not tied to the machine of Model/Sync.v).  [sync_one c l]:
    the chain [c] after a replica with the list [l] has synchronised, [l]
    carried past the chain and appended; [chain_of L]: the chain after the
    replicas [L] have synchronised in this order. *)
Definition sync_one (c l : list sop) : list sop := c ++ res l c.
Definition chain_of (L : list (list sop)) : list sop := fold_left sync_one L [].

Lemma sync_one_valid s c l :
  valid_seqb s c = true -> valid_seqb s l = true -> valid_seqb s (sync_one c l) = true.
Proof. intros Hc Hl. unfold sync_one. rewrite valid_seqb_app, Hc. exact (proj1 (res_valid s l c Hc Hl)). Qed.

(** Two chains from [s] are alike when they lead to the same state and carry
    every list to the same residual: whatever synchronises after them cannot
    tell them apart. *)
Definition alike (s : db) (c1 c2 : list sop) : Prop :=
  applyl s c1 = applyl s c2 /\ forall z, valid_seqb s z = true -> res z c1 = res z c2.

Lemma alike_sync s c1 c2 l :
  alike s c1 c2 -> valid_seqb s l = true -> alike s (sync_one c1 l) (sync_one c2 l).
Proof.
  intros [E R] Hl. unfold alike, sync_one. rewrite !applyl_app, E, (R l Hl).
  split; [reflexivity|]. intros z Hz. rewrite !res_app_r, (R z Hz). reflexivity.
Qed.

Lemma alike_syncs s L : Forall (fun l => valid_seqb s l = true) L -> forall c1 c2,
  alike s c1 c2 -> alike s (fold_left sync_one L c1) (fold_left sync_one L c2).
Proof. induction 1 as [|l L Hl _ IH]; intros c1 c2 H; [exact H|]. apply IH, alike_sync; assumption. Qed.

(** two replicas in either order, after any chain: the diamond for the state,
    the cube for what comes later *)
Lemma alike_swap s c x y :
  valid_seqb s c = true -> valid_seqb s x = true -> valid_seqb s y = true ->
  alike s (sync_one (sync_one c x) y) (sync_one (sync_one c y) x).
Proof.
  intros Hc Hx Hy. destruct (res_valid s x c Hc Hx) as [Vx _], (res_valid s y c Hc Hy) as [Vy _].
  destruct (res_valid _ _ _ Vx Vy) as [_ E].
  unfold alike, sync_one. rewrite !res_app_r, !applyl_app, E.
  split; [reflexivity|]. intros z Hz. destruct (res_valid s z c Hc Hz) as [Vz _].
  rewrite !res_app_r. apply (cube_lists _ _ _ _ Vx Vy Vz).
Qed.

(** in whatever order the replicas synchronise, from any chain, the chains are alike *)
Theorem chains_alike s L L' : Permutation L L' -> forall c,
  valid_seqb s c = true -> Forall (fun l => valid_seqb s l = true) L ->
  alike s (fold_left sync_one L c) (fold_left sync_one L' c).
Proof.
  induction 1 as [|x L L' _ IH|x y L|L L' L'' HP IH _ IH']; intros c Hc HV.
  - split; reflexivity.
  - apply Forall_cons in HV as [Hx HV]. apply IH; [apply sync_one_valid; assumption|exact HV].
  - apply Forall_cons in HV as [Hy [Hx HV]%Forall_cons]. apply (alike_syncs s L HV), alike_swap; assumption.
  - destruct (IH c Hc HV) as [E R], (IH' c Hc (Permutation_Forall HP HV)) as [E' R'].
    split; [congruence|]. intros z Hz. rewrite (R z Hz). exact (R' z Hz).
Qed.

Corollary order_independent s L L' :
  Forall (fun l => valid_seqb s l = true) L -> Permutation L L' ->
  applyl s (chain_of L) = applyl s (chain_of L').
Proof. intros HV HP. exact (proj1 (chains_alike s L L' HP [] eq_refl HV)). Qed.

Lemma sync3_chain s x y z : sync3 s x y z = applyl s (chain_of [x; y; z]).
Proof. unfold sync3, chain_of, sync_one. cbn [fold_left app]. rewrite res_app_r, !applyl_app. reflexivity. Qed.

Theorem order_independent_3 s a b c :
  valid_seqb s a = true -> valid_seqb s b = true -> valid_seqb s c = true ->
  sync3 s a b c = sync3 s a c b /\ sync3 s a b c = sync3 s b a c /\ sync3 s a b c = sync3 s b c a
  /\ sync3 s a b c = sync3 s c a b /\ sync3 s a b c = sync3 s c b a.
Proof.
  intros Ha Hb Hc. rewrite !sync3_chain.
  assert (Forall (fun l => valid_seqb s l = true) [a; b; c]) as HV by (repeat constructor; assumption).
  repeat split; apply (order_independent s _ _ HV).
  - apply perm_skip, perm_swap.
  - apply perm_swap.
  - apply (Permutation_cons_append [b; c] a).
  - apply (Permutation_app_comm [a; b] [c]).
  - apply (Permutation_rev [a; b; c]).
Qed.

(** the premises are satisfiable with real conflicts *)
Definition three_writers_case :=
  let s : db := {[ 1%N := ∅ ]} in
  let a := [SUpdate 1 2 (Some 7%N) 5] in
  let b := [SUpdate 1 2 (Some 7%N) 1; SUpdate 1 3 (Some 1%N) 1; SCreate 4; SUpdate 4 2 (Some 1%N) 9] in
  let c := [SUpdate 1 2 (Some 8%N) 3; SDelete 1; SCreate 1; SCreate 4; SUpdate 4 2 (Some 2%N) 9] in
  (valid_seqb s a && valid_seqb s b && valid_seqb s c,
   bool_decide (sync3 s a b c = sync3 s c b a),
   map (fun ut : N * gmap N N => (ut.1, map_to_list ut.2)) (map_to_list (sync3 s a b c))).
Example three_writers : three_writers_case = (true, true, [(1%N, []); (4%N, [(2%N, 2%N)])]).
Proof. vm_compute. reflexivity. Qed.
