(** What [transform] does -- each operation is kept unchanged or dropped,
    [transform_spec] -- what [apply] does -- a [partial_alter] at one task,
    [apply_alter] -- and TP1: the diamond closes on every state where both
    operations are valid, and validity is preserved. *)
From TC Require Import Model.Transform.

Definition applyo (s : db) (o : option sop) : db :=
  match o with Some x => apply s x | None => s end.
Definition valido (s : db) (o : option sop) : bool :=
  match o with Some x => validb s x | None => true end.

Lemma upd_task_alter tk p v : upd_task tk p v = partial_alter (fun _ => v) p tk.
Proof. destruct v; reflexivity. Qed.

Lemma upd_task_comm tk p1 v1 p2 v2 :
  p1 <> p2 -> upd_task (upd_task tk p1 v1) p2 v2 = upd_task (upd_task tk p2 v2) p1 v1.
Proof. intros Hne. rewrite !upd_task_alter. apply partial_alter_commute. congruence. Qed.

Lemma upd_task_shadow tk p v1 v2 :
  upd_task (upd_task tk p v1) p v2 = upd_task tk p v2.
Proof.
  rewrite !upd_task_alter. symmetry. apply (partial_alter_compose (fun _ => v2) (fun _ => v1)).
Qed.

Lemma ov_eqb_eq a b : ov_eqb a b = true <-> a = b.
Proof.
  destruct a, b; simpl; split; try congruence; intros H.
  - apply N.eqb_eq in H. congruence.
  - inv H. apply N.eqb_refl.
Qed.

Lemma ov_eqb_sym a b : ov_eqb a b = ov_eqb b a.
Proof. destruct a, b; cbn; try reflexivity. apply N.eqb_sym. Qed.

Lemma ov_trichotomy a b : ov_eqb a b = false -> ov_ltb a b = negb (ov_ltb b a).
Proof.
  destruct a as [x|], b as [y|]; cbn; try reflexivity; try discriminate.
  intros H. apply N.eqb_neq in H.
  destruct (N.ltb_spec x y), (N.ltb_spec y x); cbn; try reflexivity; lia.
Qed.

Lemma tv_ltb_antisym t1 v1 t2 v2 :
  (ov_eqb v1 v2 && Z.eqb t1 t2) = false ->
  tv_ltb t2 v2 t1 v1 = negb (tv_ltb t1 v1 t2 v2).
Proof.
  unfold tv_ltb. intros H. rewrite (Z.eqb_sym t2 t1).
  destruct (Z.eqb_spec t1 t2) as [->|Hne].
  - rewrite andb_true_r in H. rewrite Z.ltb_irrefl. cbn.
    rewrite (ov_trichotomy v1 v2 H). destruct (ov_ltb v2 v1); reflexivity.
  - cbn [andb]. rewrite !orb_false_r.
    destruct (Z.ltb_spec t1 t2), (Z.ltb_spec t2 t1); cbn; try reflexivity; lia.
Qed.

Definition tv_leb (t1 : Z) (v1 : option value) (t2 : Z) (v2 : option value) : bool :=
  ov_eqb v1 v2 && Z.eqb t1 t2 || tv_ltb t1 v1 t2 v2.

(** [absorbed a b]: [a] does not survive meeting [b].  Between operations valid
    in a common state this is the documented table ([transform_table]); the
    arms for a creation meeting an update, and a deletion meeting a creation,
    of the same task are what the code does with pairs that cannot both be
    valid. *)
Definition absorbed (a b : sop) : bool :=
  match a, b with
  | SCreate u1, (SCreate u2 | SUpdate u2 _ _ _)
  | SDelete u1, (SCreate u2 | SDelete u2)
  | SUpdate u1 _ _ _, SDelete u2 => N.eqb u1 u2
  | SUpdate u1 p1 v1 t1, SUpdate u2 p2 v2 t2 =>
      N.eqb u1 u2 && N.eqb p1 p2 && tv_leb t1 v1 t2 v2
  | _, _ => false
  end.

Lemma transform_spec a b :
  transform a b = (if absorbed a b then None else Some a, if absorbed b a then None else Some b).
Proof.
  destruct a as [u1|u1|u1 p1 v1 t1], b as [u2|u2|u2 p2 v2 t2]; cbn [transform absorbed]; unfold tv_leb;
    rewrite ?(N.eqb_sym u2 u1); try (destruct (N.eqb u1 u2); reflexivity).
  rewrite (N.eqb_sym p2 p1), (ov_eqb_sym v2 v1), (Z.eqb_sym t2 t1).
  destruct (N.eqb u1 u2 && N.eqb p1 p2); [cbn [andb]|reflexivity].
  destruct (ov_eqb v1 v2 && Z.eqb t1 t2) eqn:E; [reflexivity|].
  rewrite (tv_ltb_antisym _ _ _ _ E). destruct (tv_ltb t1 v1 t2 v2); reflexivity.
Qed.

Lemma absorbed_same_task a b : absorbed a b = true -> sop_uuid a = sop_uuid b.
Proof.
  destruct a, b; cbn; try discriminate; rewrite ?andb_true_iff;
    intros H; apply N.eqb_eq; tauto.
Qed.

Lemma absorbed_refl a : absorbed a a = true.
Proof.
  destruct a as [u|u|u p v t]; cbn; unfold tv_leb; rewrite ?N.eqb_refl, ?Z.eqb_refl; try reflexivity.
  rewrite (proj2 (ov_eqb_eq v v) eq_refl). reflexivity.
Qed.

Lemma transform_self a : transform a a = (None, None).
Proof. rewrite transform_spec, absorbed_refl. reflexivity. Qed.

Definition act (o : sop) (x : option task) : option task :=
  match o, x with
  | SCreate _, None => Some ∅
  | SDelete _, _ => None
  | SUpdate _ p v _, Some tk => Some (upd_task tk p v)
  | _, _ => x
  end.

Lemma partial_alter_at {A} (f : option A -> option A) (m : gmap N A) i :
  partial_alter f i m = partial_alter (fun _ => f (m !! i)) i m.
Proof. apply partial_alter_ext. intros x <-. reflexivity. Qed.

Lemma apply_alter s o : apply s o = partial_alter (act o) (sop_uuid o) s.
Proof.
  rewrite partial_alter_at. destruct o as [u|u|u p v t]; cbn [apply sop_uuid]; [|reflexivity|];
    destruct (s !! u) eqn:E; try reflexivity.
  (* where [apply] changes nothing, [act] writes the entry that is there *)
  all: cbn [act]; rewrite <- E; symmetry; apply partial_alter_self.
Qed.

(** a task that is not there stays away until it is created *)
Lemma applyl_absent (s : db) u l :
  s !! u = None -> (forall o, o ∈ l -> o <> SCreate u) -> applyl s l !! u = None.
Proof.
  revert s; induction l as [|o l IH]; intros s Hs Hl; [exact Hs|]. cbn. apply IH.
  - rewrite apply_alter. destruct (decide (sop_uuid o = u)) as [<-|Hne];
      [|rewrite lookup_partial_alter_ne by exact Hne; exact Hs].
    rewrite lookup_partial_alter, Hs. destruct o as [u0|u0|u0 p v t]; try reflexivity.
    destruct (Hl (SCreate u0)); [left|reflexivity].
  - intros o' Ho'. apply Hl. right. exact Ho'.
Qed.

Lemma apply_comm s a b :
  sop_uuid a <> sop_uuid b -> apply (apply s a) b = apply (apply s b) a.
Proof. intros H. rewrite !apply_alter. apply partial_alter_commute. congruence. Qed.

Lemma validb_apply_ne s a b :
  sop_uuid a <> sop_uuid b -> validb (apply s a) b = validb s b.
Proof.
  intros H. destruct b; cbn in *; rewrite apply_alter, lookup_partial_alter_ne by exact H;
    reflexivity.
Qed.

Lemma apply_update_update s u p1 v1 t1 p2 v2 t2 :
  apply (apply s (SUpdate u p1 v1 t1)) (SUpdate u p2 v2 t2) =
  match s !! u with
  | Some tk => <[u := upd_task (upd_task tk p1 v1) p2 v2]> s
  | None => s
  end.
Proof.
  cbn [apply]. destruct (s !! u) as [tk|] eqn:E.
  - rewrite lookup_insert, insert_insert. reflexivity.
  - rewrite E. reflexivity.
Qed.

Lemma tp1_same_task s a b :
  sop_uuid a = sop_uuid b -> validb s a = true -> validb s b = true ->
  let '(a', b') := transform a b in
  applyo (apply s a) b' = applyo (apply s b) a'
  /\ valido (apply s a) b' = true
  /\ valido (apply s b) a' = true.
Proof.
  destruct a as [u|u|u p1 v1 t1], b as [u'|u'|u' p2 v2 t2]; cbn [sop_uuid validb transform];
    intros <-; rewrite N.eqb_refl; destruct (s !! u) as [tk|] eqn:E; try discriminate; intros _ _.
  - auto.
  - auto.
  - cbn. rewrite E, lookup_insert, delete_insert_delete. auto.
  - cbn. rewrite E, lookup_insert, delete_insert_delete. auto.
  - assert (forall p v t p' v' t',
              validb (apply s (SUpdate u p v t)) (SUpdate u p' v' t') = true) as V.
    { intros. cbn. rewrite E, lookup_insert. reflexivity. }
    destruct (N.eqb_spec p1 p2) as [->|Hp]; cbn [andb].
    + destruct (ov_eqb v1 v2 && Z.eqb t1 t2) eqn:Eq; [|destruct (tv_ltb t1 v1 t2 v2)];
        cbn [applyo valido]; rewrite ?apply_update_update, ?V; cbn [apply];
        rewrite E, ?upd_task_shadow; auto.
      apply andb_true_iff in Eq as [->%ov_eqb_eq _]. auto.
    + cbn [applyo valido]. rewrite !apply_update_update, E, (upd_task_comm _ _ _ _ _ Hp), !V. auto.
Qed.

Lemma transform_other_task a b :
  sop_uuid a <> sop_uuid b -> transform a b = (Some a, Some b).
Proof.
  intros H. rewrite transform_spec.
  destruct (absorbed a b) eqn:E1; [apply absorbed_same_task in E1; congruence|].
  destruct (absorbed b a) eqn:E2; [apply absorbed_same_task in E2; congruence|].
  reflexivity.
Qed.

Lemma tp1 (s : db) (a b : sop) :
  validb s a = true -> validb s b = true ->
  let '(a', b') := transform a b in
  applyo (apply s a) b' = applyo (apply s b) a'
  /\ valido (apply s a) b' = true
  /\ valido (apply s b) a' = true.
Proof.
  intros Ha Hb. destruct (decide (sop_uuid a = sop_uuid b)) as [E|E].
  - apply tp1_same_task; assumption.
  - rewrite (transform_other_task a b E). cbn [applyo valido].
    rewrite (apply_comm s a b E), !validb_apply_ne, Ha, Hb by congruence. auto.
Qed.
