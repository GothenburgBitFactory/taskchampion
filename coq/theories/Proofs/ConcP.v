(** Serial equivalence of concurrent handles under the lock discipline (C17). *)
From TC Require Import Model.Conc Model.Txn.

Lemma fold_left_invariant {A B} (f : A -> B -> A) (Inv : A -> Prop) l :
  (forall x a, x ∈ l -> Inv a -> Inv (f a x)) -> forall a, Inv a -> Inv (fold_left f l a).
Proof.
  induction l as [|x l IH]; intros Hf a Ha; [exact Ha|].
  apply IH; [intros y b Hy; apply Hf; right; exact Hy|apply Hf; [left|exact Ha]].
Qed.

Section P.
Context {S C : Type}.
Variable step : S -> C -> S.
Notation crun' := (crun step).

(** the machine state that goes with the bookkeeping of [committed]: the open
    transaction's private copy is the persistent state with its calls so far *)
Definition cstate_of (p : S) (open : option (nat * list C)) : cstate :=
  {| cpersist := p; cholder := (fun '(h, cs) => (h, atomic step p cs)) <$> open |}.

Lemma serial_equivalence_gen l : forall p open,
  cpersist (crun' (cstate_of p open) l) = fold_left (atomic step) (committed open l) p.
Proof.
  induction l as [|[h ev] l IH]; intros p open; [reflexivity|].
  cbn [crun fold_left committed]. destruct open as [[h' cs]|]; unfold cstep', cstep; cbn.
  - destruct (h =? h')%nat eqn:E; cbn; [|exact (IH p (Some (h', cs)))].
    apply Nat.eqb_eq in E as ->. destruct ev; cbn.
    + exact (IH p (Some (h', cs))).
    + rewrite <- (IH p (Some (h', cs ++ [c]))). unfold cstate_of, atomic. cbn.
      rewrite fold_left_app. reflexivity.
    + exact (IH (atomic step p cs) None).
    + exact (IH p None).
  - destruct ev; [exact (IH p (Some (h, [])))|exact (IH p None)..].
Qed.

(** every schedule ends in the state reached by the committed transactions one
    at a time, in commit order; abandoned transactions and refused events
    contribute nothing *)
Theorem serial_equivalence s l :
  cpersist (crun' {| cpersist := s; cholder := None |} l)
  = fold_left (atomic step) (committed None l) s.
Proof. exact (serial_equivalence_gen l s None). Qed.

Lemma fold_atomic txs : forall s, fold_left (atomic step) txs s = atomic step s (concat txs).
Proof.
  induction txs as [|cs txs IH]; intros s; [reflexivity|].
  cbn [fold_left concat]. rewrite IH. unfold atomic. rewrite fold_left_app. reflexivity.
Qed.

Lemma atomic_invariant (Inv : S -> Prop) :
  (forall s c, Inv s -> Inv (step s c)) -> forall cs s, Inv s -> Inv (atomic step s cs).
Proof. intros Hstep cs. apply fold_left_invariant. intros c s _. apply Hstep. Qed.

(** the state a transaction is applied to is the state it read: between its
    begin and its commit nothing another handle does changes anything *)
Lemma persistent_frozen_while_held l : forall st h w,
  cholder st = Some (h, w) ->
  Forall (fun e => e.1 <> h) l ->
  crun' st l = st.
Proof.
  induction l as [|[h' ev] l IH]; intros st h w Hh F; [reflexivity|].
  apply Forall_cons in F as [Hne F]. cbn [crun fold_left].
  replace (cstep' step st (h', ev)) with st; [exact (IH st h w Hh F)|].
  unfold cstep', cstep. rewrite Hh. destruct (Nat.eqb_spec h' h) as [E|_]; [contradiction|reflexivity].
Qed.

Theorem invariant_of_transactions (Inv : S -> Prop) s l :
  Inv s ->
  (forall cs s', cs ∈ committed None l -> Inv s' -> Inv (atomic step s' cs)) ->
  Inv (cpersist (crun' {| cpersist := s; cholder := None |} l)).
Proof.
  intros H0 Hstep. rewrite serial_equivalence. exact (fold_left_invariant _ _ _ Hstep s H0).
Qed.

(** in particular an invariant of the single calls *)
Corollary invariant_of_calls (Inv : S -> Prop) s l :
  (forall s c, Inv s -> Inv (step s c)) -> Inv s ->
  Inv (cpersist (crun' {| cpersist := s; cholder := None |} l)).
Proof.
  intros Hstep H0. apply invariant_of_transactions; [exact H0|].
  intros cs s' _. apply atomic_invariant, Hstep.
Qed.

(** a serial schedule is one single-handle history: the machine of C06 run on
    the events without their handle names *)
Definition forget (e : nat * @hev C) : @tev C :=
  match e.2 with HBegin => TBegin | HCall c => TCall c | HCommit => TCommit | HAbandon => TAbandon end.

Definition tagrees (st : @cstate S) (t : @tstate S) (open : option nat) : Prop :=
  cpersist st = persistent t /\
  match cholder st, open with
  | None, None => working t = None
  | Some (h, w), Some h' => h = h' /\ working t = Some w
  | _, _ => False
  end.

Lemma serial_is_single_handle l : forall st t open,
  tagrees st t open -> serial open l = true ->
  cpersist (crun' st l) = persistent (trun step t (map forget l)).
Proof.
  induction l as [|[h ev] l IH]; intros st t open [A1 A2] Hs; [exact A1|].
  cbn [crun fold_left map trun].
  cbn [serial] in Hs. unfold cstep', cstep.
  destruct (cholder st) as [[h' w]|] eqn:Eh, open as [h2|]; try contradiction.
  - destruct A2 as [<- Hw]. apply andb_true_iff in Hs as [->%Nat.eqb_eq Hs].
    rewrite Nat.eqb_refl. cbn [negb]. destruct ev; try discriminate; cbn [default forget snd].
    all: eapply IH; [|exact Hs]; split; cbn; rewrite ?Hw; auto.
  - destruct ev; try discriminate. cbn [default forget snd].
    eapply IH; [|exact Hs]. split; cbn; rewrite ?A1; auto.
Qed.
End P.
