(** The replica invariant and convergence, for every history of commits,
    interleaved sync steps, abandoned syncs, lost replies and versions added
    by other clients. *)
From TC Require Import Model.Sync Proofs.RebaseP.

Section WithBatching.
Variable sz : sop -> N.
Variable limit : N.

Notation take_batch' := (take_batch sz limit).
Notation sync_next' := (sync_next sz limit).
Notation sync_resume' := (sync_resume sz limit).
Notation sys_step' := (sys_step sz limit).
Notation run' := (run sz limit).
Notation wf_history' := (wf_history sz limit).

Lemma cstate_app c c' k : k <= length c -> cstate (c ++ c') k = cstate c k.
Proof. intros H. unfold cstate. rewrite take_app_le by lia. reflexivity. Qed.

Lemma cstate_S c k ops : c !! k = Some ops -> cstate c (S k) = applyl (cstate c k) ops.
Proof.
  intros H. unfold cstate. rewrite (take_S_r _ _ _ H), concat_app, applyl_app.
  cbn. rewrite app_nil_r. reflexivity.
Qed.

Lemma cstate_all c : cstate c (length c) = applyl ∅ (concat c).
Proof. unfold cstate. rewrite firstn_all. reflexivity. Qed.

Lemma chain_valid_at c k ops :
  valid_seqb ∅ (concat c) = true -> c !! k = Some ops ->
  valid_seqb (cstate c k) ops = true.
Proof.
  intros Hv Hk.
  rewrite <- (take_drop_middle _ _ _ Hk), concat_app, concat_cons, !valid_seqb_app,
    !andb_true_iff in Hv.
  destruct Hv as (_ & Hv & _). exact Hv.
Qed.

Lemma chain_valid_snoc c ops :
  valid_seqb ∅ (concat c) = true ->
  valid_seqb (cstate c (length c)) ops = true ->
  valid_seqb ∅ (concat (c ++ [ops])) = true.
Proof.
  intros H1 H2. rewrite concat_app, valid_seqb_app, H1. cbn [concat].
  rewrite app_nil_r, <- cstate_all. exact H2.
Qed.

Lemma take_batch_aux_prefix acc first l :
  take_batch_aux sz limit acc first l ++ drop (length (take_batch_aux sz limit acc first l)) l = l.
Proof.
  revert acc first; induction l as [|o l IH]; intros acc first; cbn [take_batch_aux].
  - reflexivity.
  - destruct (first || (acc + sz o <=? limit)%N); cbn.
    + f_equal. apply IH.
    + reflexivity.
Qed.

Lemma take_batch_prefix l : take_batch' l ++ drop (length (take_batch' l)) l = l.
Proof. apply take_batch_aux_prefix. Qed.

Lemma take_batch_nonempty o l : take_batch' (o :: l) <> [].
Proof. unfold take_batch. cbn. discriminate. Qed.

(** [tracks c b t l]: [t] is the state of version [b] of the chain [c] with the
    operations [l], valid there, applied on top.  It is what [rep_inv] says of
    a replica and [sst_inv] of a sync in progress. *)
Definition tracks (c : list (list sop)) (b : nat) (t : db) (l : list sop) : Prop :=
  b <= length c /\ valid_seqb (cstate c b) l = true /\ t = applyl (cstate c b) l.

Lemma tracks_nil c b t : tracks c b t [] <-> b <= length c /\ t = cstate c b.
Proof. unfold tracks. cbn. tauto. Qed.

(** the chain only grows at its end, which the versions below do not see *)
Lemma tracks_prefix c c' b t l : c `prefix_of` c' -> tracks c b t l -> tracks c' b t l.
Proof.
  intros [k ->] (H1 & H2 & H3). unfold tracks. rewrite app_length, cstate_app by lia.
  auto with lia.
Qed.

Lemma tracks_app c b t l l' :
  tracks c b t l -> valid_seqb t l' = true -> tracks c b (applyl t l') (l ++ l').
Proof.
  intros (H1 & H2 & ->) Hv. unfold tracks. rewrite valid_seqb_app, applyl_app, H2, Hv. auto.
Qed.

(** pulling version [S b]: the diamond *)
Lemma tracks_pull c b t l ops :
  valid_seqb ∅ (concat c) = true -> c !! b = Some ops -> tracks c b t l ->
  tracks c (S b) (applyl t (rebase' ops l).1) (rebase' ops l).2.
Proof.
  intros Hc Hb (H1 & H2 & ->).
  pose proof (rebase_diamond ops l _ (chain_valid_at _ _ _ Hc Hb) H2) as D.
  destruct (rebase' ops l) as [v' l']. destruct D as (D1 & D2 & _).
  unfold tracks. rewrite (cstate_S _ _ _ Hb). apply lookup_lt_Some in Hb. auto with lia.
Qed.

(** pushing the first part of [l] as the next version, from the end of the chain *)
Lemma tracks_push c t l1 l2 :
  tracks c (length c) t (l1 ++ l2) ->
  valid_seqb (cstate c (length c)) l1 = true /\ tracks (c ++ [l1]) (S (length c)) t l2.
Proof.
  intros (_ & H2 & ->). rewrite valid_seqb_app in H2. apply andb_true_iff in H2 as [V1 V2].
  split; [exact V1|]. unfold tracks.
  rewrite (cstate_S (c ++ [l1]) _ l1), cstate_app, app_length, applyl_app
    by (rewrite ?lookup_app_r, ?Nat.sub_diag; done).
  cbn [length]. auto with lia.
Qed.

Definition rep_inv (c : list (list sop)) (r : replica) : Prop :=
  r_base r <= length c
  /\ valid_seqb (cstate c (r_base r)) (sync_form (r_pend r)) = true
  /\ r_tasks r = applyl (cstate c (r_base r)) (sync_form (r_pend r)).

(** the last clause: a sync uploads its tasks as the snapshot of its base version,
    or installs a snapshot in their place, only with no local operation left *)
Definition sst_inv (c : list (list sop)) (x : sst) : Prop :=
  x_base x <= length c
  /\ valid_seqb (cstate c (x_base x)) (x_local x) = true
  /\ x_tasks x = applyl (cstate c (x_base x)) (x_local x)
  /\ (x_pc x = AtSnapUp \/ x_pc x = AtSnap -> x_local x = []).

Definition srv_inv (sv : server) : Prop :=
  valid_seqb ∅ (concat (chain sv)) = true
  /\ match snap sv with
     | Some (v, d) => v <= length (chain sv) /\ d = cstate (chain sv) v
     | None => True
     end.

Definition node_inv (c : list (list sop)) (n : node) : Prop :=
  rep_inv c (n_rep n)
  /\ match n_sync n with Some x => sst_inv c x | None => True end.

Definition Inv (s : sys) : Prop :=
  srv_inv (srv s) /\ Forall (node_inv (chain (srv s))) (nodes s).

Lemma sst_inv_tracks c x :
  sst_inv c x <->
  tracks c (x_base x) (x_tasks x) (x_local x)
  /\ match x_pc x with AtSnapUp | AtSnap => x_local x = [] | _ => True end.
Proof.
  unfold sst_inv, tracks. split.
  - intros (H1 & H2 & H3 & H4). repeat split; try assumption. destruct (x_pc x); auto.
  - intros ((H1 & H2 & H3) & H4). repeat split; try assumption.
    intros [E|E]; rewrite E in H4; exact H4.
Qed.

Lemma sync_form_app l1 l2 : sync_form (l1 ++ l2) = sync_form l1 ++ sync_form l2.
Proof. apply omap_app. Qed.

Lemma node_inv_prefix c c' n : c `prefix_of` c' -> node_inv c n -> node_inv c' n.
Proof.
  intros Hc [H1 H2]. split; [exact (tracks_prefix _ _ _ _ _ Hc H1)|].
  destruct (n_sync n); [|exact I]. apply sst_inv_tracks in H2 as [H2 H3].
  apply sst_inv_tracks. split; [exact (tracks_prefix _ _ _ _ _ Hc H2)|exact H3].
Qed.

Lemma srv_inv_snoc sv ops :
  srv_inv sv -> valid_seqb (cstate (chain sv) (length (chain sv))) ops = true ->
  srv_inv {| chain := chain sv ++ [ops]; snap := snap sv |}.
Proof.
  intros [Hc Hs] Hv. split; cbn [chain snap]; [apply chain_valid_snoc; assumption|].
  destruct (snap sv) as [[v d]|]; [|exact I].
  apply tracks_nil, (tracks_prefix _ (chain sv ++ [ops])), tracks_nil in Hs;
    [exact Hs|apply prefix_app_r; reflexivity].
Qed.

Lemma add_version_cases sv g b ops :
  let n := length (chain sv) in
  (n = 0 \/ b = n)
  /\ srv_step sv g (RAddVersion b ops)
     = (PAddOk (S n) g, {| chain := chain sv ++ [ops]; snap := snap sv |})
  \/ b <> n /\ srv_step sv g (RAddVersion b ops) = (PExpected n g, sv).
Proof.
  cbn [srv_step].
  destruct (Nat.eqb_spec (length (chain sv)) 0), (Nat.eqb_spec b (length (chain sv)));
    cbn [orb]; auto.
Qed.

Lemma add_snapshot_cases sv g v d :
  exists sv', srv_step sv g (RAddSnapshot v d) = (PUnit, sv') /\ chain sv' = chain sv
    /\ (snap sv' = snap sv \/ snap sv' = Some (v, d)).
Proof.
  cbn [srv_step]. eexists. split; [reflexivity|].
  destruct (match snap sv with Some _ => _ | None => _ end); auto.
Qed.

Lemma srv_step_grows sv g q : chain sv `prefix_of` chain (srv_step sv g q).2.
Proof.
  destruct q as [|b|b ops|v d].
  - reflexivity.
  - cbn [srv_step]. destruct (chain sv !! b); reflexivity.
  - destruct (add_version_cases sv g b ops) as [[_ ->]|[_ ->]]; [eexists|]; reflexivity.
  - destruct (add_snapshot_cases sv g v d) as (sv' & -> & Ec & _). cbn [snd]. rewrite Ec. reflexivity.
Qed.

(** Where the machine stands after a reply, whatever the reply: never again before the
    snapshot request, and with nothing left to send where it uploads a snapshot or commits.
    So the last clause of [sst_inv] needs no invariant: only [tracks] is carried through
    [sync_step_tracks]. *)
Lemma sync_resume_at x p :
  match x_pc (sync_resume' x p) with
  | AtSnap => False
  | AtSnapUp | Done SyncOk => x_local (sync_resume' x p) = []
  | _ => True
  end.
Proof.
  unfold sync_resume.
  destruct (x_pc x); destruct p as [[[v d]|]|v ops|  |v g|v g| ]; cbn; try exact I.
  - destruct (rebase transform ops (x_local x)); exact I.
  - destruct (x_local x) eqn:E; [exact E|exact I].
  - destruct (drop _ _); [destruct (urg_geb _ _)|]; cbn; auto.
  - destruct (x_req x) as [q|]; [destruct (q =? v)%nat|]; exact I.
Qed.

Lemma sst_inv_resume c x p :
  tracks c (x_base (sync_resume' x p)) (x_tasks (sync_resume' x p)) (x_local (sync_resume' x p)) ->
  sst_inv c (sync_resume' x p).
Proof.
  intros T. apply sst_inv_tracks. split; [exact T|].
  pose proof (sync_resume_at x p) as A. destruct (x_pc _); first [exact A|exact I|destruct A].
Qed.

Lemma sync_step_tracks sv x g q :
  sync_next' x = inl q -> srv_inv sv -> sst_inv (chain sv) x ->
  let x' := sync_resume' x (srv_step sv g q).1 in
  srv_inv (srv_step sv g q).2
  /\ tracks (chain (srv_step sv g q).2) (x_base x') (x_tasks x') (x_local x').
Proof.
  intros Hn Hsv [HT HL]%sst_inv_tracks. pose proof Hsv as [Hc Hs].
  unfold sync_next in Hn. unfold sync_resume.
  destruct (x_pc x) eqn:Epc; inv Hn.
  - cbn [srv_step fst snd]. split; [exact Hsv|].
    destruct (snap sv) as [[v d]|]; [|exact HT]. cbn. rewrite HL. apply tracks_nil, Hs.
  - cbn [srv_step]. destruct (chain sv !! x_base x) as [ops|] eqn:Ek; cbn [fst snd]; (split; [exact Hsv|]).
    + pose proof (tracks_pull _ _ _ _ _ Hc Ek HT) as T. destruct (rebase' ops (x_local x)). exact T.
    + destruct (x_local x) in |- *; exact HT.
  - pose proof (take_batch_prefix (x_local x)) as Hp. set (b := take_batch' (x_local x)) in *.
    destruct (add_version_cases sv g (x_base x) b) as [[Hb ->]|[_ ->]]; cbn [fst snd chain].
    + (* accepted: the chain grows by the batch, the base moves to its end *)
      assert (x_base x = length (chain sv)) as Hb' by (destruct HT; lia).
      rewrite <- Hp, Hb' in HT. apply tracks_push in HT as [V T].
      split; [apply srv_inv_snoc; assumption|exact T].
    + split; [exact Hsv|]. destruct (x_req x) as [r|]; [destruct (r =? _)%nat|]; exact HT.
  - (* add_snapshot: its tasks are the state of the base, since nothing is left to send *)
    destruct (add_snapshot_cases sv g (x_base x) (x_tasks x)) as (sv' & -> & Ec & Es).
    cbn [fst snd]. rewrite Ec. split; [|exact HT].
    split; rewrite Ec; [exact Hc|]. destruct Es as [-> | ->]; [exact Hs|].
    rewrite HL in HT. apply tracks_nil, HT.
Qed.

Lemma start_sync_inv c r avoid wst :
  rep_inv c r -> sst_inv c (start_sync r avoid wst).
Proof.
  intros H. apply sst_inv_tracks. split; [exact H|]. cbn. unfold rep_is_empty.
  destruct (r_pend r); [destruct (_ && _)|rewrite andb_false_r]; auto.
Qed.

Lemma finish_sync_inv c x :
  sst_inv c x -> x_local x = [] -> rep_inv c (finish_sync x).
Proof. intros [H _]%sst_inv_tracks Hl. rewrite Hl in H. exact H. Qed.

(** a step changes the server and one node; the other nodes only see the chain grow *)
Lemma nodes_step (P : list (list sop) -> node -> Prop) c c' ns i nd :
  (forall n, P c n -> P c' n) -> Forall (P c) ns -> P c' nd -> Forall (P c') (<[i := nd]> ns).
Proof.
  intros HP H Hnd. apply Forall_insert; [|exact Hnd]. eapply Forall_impl; [exact H|exact HP].
Qed.

Lemma Inv_change s sv' i nd rs :
  Inv s -> srv_inv sv' -> chain (srv s) `prefix_of` chain sv' -> node_inv (chain sv') nd ->
  Inv {| srv := sv'; nodes := <[i := nd]> (nodes s); results := rs |}.
Proof.
  intros [_ Hn] Hsv Hc Hnd. split; [exact Hsv|].
  eapply nodes_step; [|exact Hn|exact Hnd]. intros n. apply node_inv_prefix, Hc.
Qed.

(** well-formedness of the one event, in the form [run_invariant] supplies it *)
Lemma sys_step_inv s e : wf_history' s [e] = true -> Inv s -> Inv (sys_step' s e).
Proof.
  intros Hwf%andb_true_iff%proj1 HI. pose proof HI as [Hsrv Hn].
  destruct e as [i ops|i avoid wst|i g|i|i g|fops]; cbn [sys_step] in *.
  1-5: destruct (nodes s !! i) as [[r [x|]]|] eqn:Ei; try exact HI;
       pose proof (Forall_lookup_1 _ _ _ _ Hn Ei) as [HR HX]; cbn [n_rep n_sync] in HR, HX.
  - apply Inv_change; [exact HI|exact Hsrv|reflexivity|]. split; [|exact I].
    unfold rep_inv. cbn [n_rep r_tasks r_base r_pend]. rewrite sync_form_app.
    apply tracks_app; assumption.
  - apply Inv_change; [exact HI|exact Hsrv|reflexivity|]. split; [exact HR|].
    apply start_sync_inv. exact HR.
  - (* the sync goes on (the first four states); of the three ways to end, the two
       failures leave the replica as it was and [SyncOk], done last, commits *)
    destruct (sync_next' x) as [q|res] eqn:En; [|exact HI].
    pose proof (sync_step_tracks (srv s) x g q En Hsrv HX) as [S1 S2%sst_inv_resume].
    pose proof (srv_step_grows (srv s) g q) as S3.
    destruct (srv_step (srv s) g q) as [p srv']. cbn [fst snd] in S1, S2, S3.
    pose proof (tracks_prefix _ _ _ _ _ S3 HR) as HR'. pose proof (sync_resume_at x p) as A.
    destruct (x_pc (sync_resume' x p)) as [ | | | |[ | | ]];
      (apply Inv_change; [exact HI|exact S1|exact S3|]).
    1-4: split; [exact HR'|exact S2].
    2-3: split; [exact HR'|exact I].
    split; [exact (finish_sync_inv _ _ S2 A)|exact I].
  - apply Inv_change; [exact HI|exact Hsrv|reflexivity|]. split; [exact HR|exact I].
  - destruct (sync_next' x) as [q|res] eqn:En; [|exact HI].
    pose proof (sync_step_tracks (srv s) x g q En Hsrv HX) as [S1 _].
    pose proof (srv_step_grows (srv s) g q) as S3.
    destruct (srv_step (srv s) g q) as [p srv']. cbn [fst snd] in S1, S3.
    apply Inv_change; [exact HI|exact S1|exact S3|].
    split; [exact (tracks_prefix _ _ _ _ _ S3 HR)|exact I].
  - split; cbn [srv nodes chain].
    + apply srv_inv_snoc; [exact Hsrv|]. rewrite cstate_all. exact Hwf.
    + eapply Forall_impl; [exact Hn|]. intros n. apply node_inv_prefix, prefix_app_r. reflexivity.
Qed.

Lemma Inv_init n : Inv (sys0 n).
Proof.
  split; cbn.
  - split; [reflexivity|exact I].
  - apply Forall_replicate. split; [|exact I]. unfold rep_inv; cbn. repeat split; auto.
Qed.

Lemma run_invariant (P : sys -> Prop) :
  (forall s e, wf_history' s [e] = true -> P s -> P (sys_step' s e)) ->
  forall h s, P s -> wf_history' s h = true -> P (run' s h).
Proof.
  intros Hstep. induction h as [|e h IH]; intros s HP Hwf; [exact HP|].
  apply andb_true_iff in Hwf as [He Hh]. apply IH; [apply Hstep; [|exact HP]|exact Hh].
  cbn [wf_history]. rewrite He. reflexivity.
Qed.

Lemma run_inv h : forall s, Inv s -> wf_history' s h = true -> Inv (run' s h).
Proof. apply run_invariant, sys_step_inv. Qed.

Lemma Inv_reachable n h : wf_history' (sys0 n) h = true -> Inv (run' (sys0 n) h).
Proof. apply run_inv, Inv_init. Qed.

Theorem converge_inv s i nd :
  Inv s -> nodes s !! i = Some nd ->
  r_pend (n_rep nd) = [] -> r_base (n_rep nd) = length (chain (srv s)) ->
  r_tasks (n_rep nd) = applyl ∅ (concat (chain (srv s))).
Proof.
  intros [_ Hn] Hi Hp Hb.
  pose proof (Forall_lookup_1 _ _ _ _ Hn Hi) as [(R1 & R2 & R3) _].
  rewrite R3, Hp, Hb, cstate_all. reflexivity.
Qed.

Theorem converge n h i nd :
  wf_history' (sys0 n) h = true ->
  nodes (run' (sys0 n) h) !! i = Some nd ->
  r_pend (n_rep nd) = [] ->
  r_base (n_rep nd) = length (chain (srv (run' (sys0 n) h))) ->
  r_tasks (n_rep nd) = applyl ∅ (concat (chain (srv (run' (sys0 n) h)))).
Proof.
  intros Hwf. apply converge_inv, Inv_reachable, Hwf.
Qed.

End WithBatching.
