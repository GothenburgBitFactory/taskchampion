(** [apply_operations] with its write cache equals one-at-a-time application
    (C05), for every batch, valid or not, and every order of the final flush. *)
From TC Require Import Model.TaskDb.

Definition apply_local (d : db) (o : op) : db :=
  match from_op o with Some so => apply d so | None => d end.

Lemma applyl_sync_form d ops : applyl d (sync_form ops) = fold_left apply_local ops d.
Proof.
  unfold applyl, sync_form.
  revert d; induction ops as [|o ops IH]; intros d; [reflexivity|].
  cbn [omap list_omap fold_left]. unfold apply_local at 2.
  destruct (from_op o); cbn [fold_left]; rewrite IH; reflexivity.
Qed.

Definition same_meta (s s' : store) : Prop :=
  st_base s' = st_base s /\ st_ops s' = st_ops s /\ st_ws s' = st_ws s.

Lemma same_meta_refl s : same_meta s s. Proof. repeat split. Qed.
Lemma same_meta_set_tasks s s' : same_meta s s' -> s' = set_tasks s (st_tasks s').
Proof. destruct s, s'. unfold same_meta. cbn. intros (-> & -> & ->). reflexivity. Qed.
Lemma same_meta_trans a b c : same_meta a b -> same_meta b c -> same_meta a c.
Proof. intros (?&?&?) (?&?&?). repeat split; congruence. Qed.

(** A cached entry [ce], the stored task [se] and the task [de] of the database
    that cache and storage stand for, at one uuid: a cached entry is the task's
    present state, otherwise the storage has it.  A cached [None] is dropped by
    the flush without a write, so the storage must not have that task. *)
Definition agree (ce : option (option (gmap N N))) (se de : option (gmap N N)) : Prop :=
  match ce with
  | Some (Some t) => de = Some t
  | Some None => de = None /\ se = None
  | None => de = se
  end.

(** what the loop reads is the task [de] *)
Lemma agree_view ce se de : agree ce se de -> match ce with Some e => e | None => se end = de.
Proof. destruct ce as [[t|]|]; cbn; [congruence|intros []; congruence|congruence]. Qed.

(** The invariant of the batch loop: cache and storage together hold the task
    database [d] that one-at-a-time application has reached, and nothing but
    the tasks of the initial store [s0] has changed. *)
Definition stands_for (s0 : store) (d : db) (cs : gmap N (option (gmap N N)) * store) : Prop :=
  (forall u, agree (cs.1 !! u) (st_tasks cs.2 !! u) (d !! u)) /\ same_meta s0 cs.2.

(** Each step acts on cache, storage and [d] at one uuid [u0] only.  [at_uuid H u0]
    reduces a goal [forall u, ...] of the shape in [stands_for] to its instance
    at [u0], given the same for the state before in [H]: elsewhere the lookups
    are those of the state before. *)
Local Ltac at_uuid H u0 :=
  let u := fresh "u" in let Hne := fresh "Hne" in
  intros u; specialize (H u); cbn in *; destruct (decide (u0 = u)) as [<-|Hne];
  [|rewrite ?lookup_insert_ne, ?lookup_delete_ne by exact Hne; exact H].

Lemma flush_cache_keeps s0 d c s u0 : stands_for s0 d (c, s) -> stands_for s0 d (flush_cache c s u0).
Proof.
  intros [H M]. unfold flush_cache.
  destruct (c !! u0) as [[t|]|] eqn:E; [| |exact (conj H M)].
  all: split; [|exact M]; at_uuid H u0; rewrite E in H; rewrite lookup_delete.
  - (* the cached task is written *)
    rewrite lookup_insert. exact H.
  - (* nothing is written: the storage does not have the task *)
    destruct H; congruence.
Qed.

Lemma flush_cache_fst c s u : (flush_cache c s u).1 = delete u c.
Proof.
  unfold flush_cache. destruct (c !! u) as [[t|]|] eqn:E; [reflexivity..|].
  symmetry. apply delete_notin, E.
Qed.

(** [delete_task] deletes, also when it reports that there was nothing to delete *)
Lemma delete_task_tasks s u : st_tasks (delete_task s u).2 = delete u (st_tasks s).
Proof.
  unfold delete_task. destruct (st_tasks s !! u) eqn:E; [reflexivity|]. symmetry. apply delete_notin, E.
Qed.

Lemma delete_task_meta s u : same_meta s (delete_task s u).2.
Proof. unfold delete_task. destruct (st_tasks s !! u); repeat split. Qed.

Lemma apply_cached_step s0 d cs o :
  stands_for s0 d cs -> stands_for s0 (apply_local d o) (apply_cached cs o).
Proof.
  destruct cs as [c s]. intros H.
  destruct o as [u0|u0 old|u0 p old v t|]; cbn [apply_cached]; unfold apply_local; cbn [from_op apply].
  - (* create: once [u0] is flushed the storage has it iff [d] has *)
    apply (flush_cache_keeps _ _ _ _ u0) in H. pose proof (flush_cache_fst c s u0) as Ec.
    destruct (flush_cache c s u0) as [c1 s1], H as [H M]. cbn [fst snd] in *.
    pose proof (H u0) as Hv. rewrite Ec, lookup_delete in Hv. unfold create_task. rewrite Hv.
    destruct (st_tasks s1 !! u0); (split; [|exact M]); [exact H|].
    at_uuid H u0. rewrite Ec, lookup_delete, !lookup_insert. reflexivity.
  - (* delete: the storage deletes, the cache records the absence *)
    destruct H as [H M]. split; [|eapply same_meta_trans; [exact M|apply delete_task_meta]].
    cbn [snd]. rewrite delete_task_tasks. at_uuid H u0.
    rewrite lookup_insert, !lookup_delete. split; reflexivity.
  - (* update: of the task the loop reads for [u0], which is the one [d] has *)
    destruct H as [H M]. cbn [fst snd] in H. unfold get_task. rewrite (agree_view _ _ _ (H u0)).
    destruct (d !! u0) eqn:Ed; (split; [|exact M]); at_uuid H u0; rewrite lookup_insert.
    + rewrite lookup_insert. reflexivity.
    + destruct (c !! u0) as [[?|]|]; [congruence|exact H|split; congruence].
  - exact H.
Qed.

Lemma fold_apply_cached_steps s0 ops : forall d cs,
  stands_for s0 d cs -> stands_for s0 (fold_left apply_local ops d) (fold_left apply_cached ops cs).
Proof.
  induction ops as [|o ops IH]; intros d cs H; [exact H|]. apply IH, apply_cached_step, H.
Qed.

Lemma flush_all_keeps s0 d keys : forall cs, stands_for s0 d cs -> stands_for s0 d (flush_all keys cs).
Proof.
  induction keys as [|k keys IH]; intros [c s] H; [exact H|]. apply IH, flush_cache_keeps, H.
Qed.

Lemma flush_all_empties keys u : forall cs,
  u ∈ keys \/ cs.1 !! u = None -> (flush_all keys cs).1 !! u = None.
Proof.
  induction keys as [|k keys IH]; intros [c s] Hu; [destruct Hu as [Hu|Hu]; [inversion Hu|exact Hu]|].
  apply IH. rewrite flush_cache_fst, lookup_delete_None.
  destruct Hu as [[->|Hu]%elem_of_cons|Hu]; auto.
Qed.

Lemma flushed_tasks s0 d keys cs :
  stands_for s0 d cs -> (forall u, cs.1 !! u <> None -> u ∈ keys) ->
  st_tasks (flush_all keys cs).2 = d /\ same_meta s0 (flush_all keys cs).2.
Proof.
  intros [H M]%(flush_all_keeps _ _ keys) Hkeys. split; [|exact M].
  apply map_eq. intros u. specialize (H u).
  rewrite flush_all_empties in H; [symmetry; exact H|].
  destruct (cs.1 !! u) eqn:Ec; [left; apply Hkeys; congruence|right; reflexivity].
Qed.

Theorem apply_operations_spec keys s ops :
  (forall u, (fold_left apply_cached ops (∅, s)).1 !! u <> None -> u ∈ keys) ->
  st_tasks (apply_operations_with keys s ops) = applyl (st_tasks s) (sync_form ops)
  /\ same_meta s (apply_operations_with keys s ops).
Proof.
  unfold apply_operations_with. rewrite applyl_sync_form. apply flushed_tasks, fold_apply_cached_steps.
  split; [intros u; cbn; rewrite lookup_empty; reflexivity|apply same_meta_refl].
Qed.

(** the order the executable model uses is one of them *)
Corollary apply_operations_eq s ops :
  apply_operations s ops = set_tasks s (applyl (st_tasks s) (sync_form ops)).
Proof.
  destruct (apply_operations_spec (map fst (map_to_list (fold_left apply_cached ops (∅, s)).1)) s ops)
    as [<- M]; [|exact (same_meta_set_tasks _ _ M)].
  intros u Hu. destruct (_ !! u) as [e|] eqn:E; [|congruence].
  apply elem_of_list_fmap. exists (u, e). split; [reflexivity|apply elem_of_map_to_list, E].
Qed.
