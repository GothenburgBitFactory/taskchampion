(** Undo (C07): reversing faithful operations restores the exact earlier
    content and removes exactly those operations from the log; what
    [get_undo_operations] offers is what [commit_reversed_operations] accepts. *)
From TC Require Import Model.TaskDb Proofs.TransformP Proofs.StorageP Proofs.ApplyP.

(** an operation is faithful on [d] when it is valid there and records the
    value / task that is really there *)
Definition faithful (d : db) (o : op) : Prop :=
  match o with
  | OCreate u => d !! u = None
  | ODelete u old => d !! u = Some old
  | OUpdate u p old _ _ => exists tk, d !! u = Some tk /\ tk !! p = old
  | OUndoPoint => True
  end.

Fixpoint faithful_seq (d : db) (l : list op) : Prop :=
  match l with
  | [] => True
  | o :: l' => faithful d o /\ faithful_seq (apply_local d o) l'
  end.

Lemma faithful_seq_app d l1 l2 :
  faithful_seq d (l1 ++ l2) <-> faithful_seq d l1 /\ faithful_seq (fold_left apply_local l1 d) l2.
Proof.
  revert d; induction l1 as [|o l1 IH]; intros d; cbn; [tauto|]. rewrite IH. tauto.
Qed.

Lemma upd_task_restore tk p v : upd_task (upd_task tk p v) p (tk !! p) = tk.
Proof.
  rewrite upd_task_shadow. destruct (tk !! p) eqn:E; cbn.
  - apply insert_id. exact E.
  - apply delete_notin. exact E.
Qed.

(** re-inserting the properties of a deleted task, in any order of the list *)
Lemma apply_updates_strict u (l : list (N * N)) : forall s t0,
  st_tasks s !! u = Some t0 -> NoDup l.*1 ->
  apply_ops_strict s (map (fun '(p, v) => SUpdate u p (Some v) 0%Z) l)
  = Some (set_tasks s (<[u := list_to_map l ∪ t0]> (st_tasks s))).
Proof.
  induction l as [|[p v] l IH]; intros s t0 Hu Hnd; cbn [map apply_ops_strict].
  - rewrite list_to_map_nil, (left_id_L ∅ (∪)), insert_id, set_tasks_id by exact Hu. reflexivity.
  - apply NoDup_cons in Hnd as [Hp Hnd]. cbn [apply_op]. unfold get_task. rewrite Hu.
    rewrite (IH _ (<[p := v]> t0)) by first [apply lookup_insert|exact Hnd].
    cbn. rewrite insert_insert, <- insert_union_r, insert_union_l by
      (apply not_elem_of_list_to_map_1, Hp). reflexivity.
Qed.

Lemma apply_reverse_ops o s d :
  faithful d o -> st_tasks s = apply_local d o -> apply_ops_strict s (reverse_ops o) = Some (set_tasks s d).
Proof.
  intros Hf Ht. destruct o as [u|u old|u p old v t|]; cbn [reverse_ops faithful] in *;
    unfold apply_local in Ht; cbn [from_op apply] in Ht.
  - (* create: delete it again *)
    rewrite Hf in Ht. cbn [apply_ops_strict apply_op]. unfold delete_task.
    rewrite Ht, lookup_insert, delete_insert by exact Hf. reflexivity.
  - (* delete: re-create with all its properties *)
    cbn [apply_ops_strict apply_op]. unfold create_task. rewrite Ht, lookup_delete.
    rewrite (apply_updates_strict u _ _ ∅) by first [apply lookup_insert|apply NoDup_fst_map_to_list].
    unfold set_tasks. cbn.
    rewrite list_to_map_to_list, (right_id_L ∅ (∪)), insert_insert, insert_delete_insert, insert_id
      by exact Hf. reflexivity.
  - (* update: set the old value *)
    destruct Hf as (tk & Hu & Hp). rewrite Hu in Ht.
    cbn [apply_ops_strict apply_op]. unfold get_task, set_task.
    rewrite Ht, lookup_insert, insert_insert, <- Hp, upd_task_restore, insert_id by exact Hu. reflexivity.
  - rewrite <- Ht. cbn. rewrite set_tasks_id. reflexivity.
Qed.

Theorem reverse_restores o s d :
  faithful d o -> st_tasks s = apply_local d o ->
  exists s', apply_ops_strict s (reverse_ops o) = Some s' /\ st_tasks s' = d /\ same_meta s s'.
Proof. intros Hf Ht. eexists. split; [exact (apply_reverse_ops o s d Hf Ht)|]. repeat split. Qed.

Definition has_change (l : list op) : bool := existsb (fun o => negb (is_undo_point o)) l.

Lemma reverse_ops_nonempty o : match reverse_ops o with [] => false | _ => true end = negb (is_undo_point o).
Proof. destruct o; reflexivity. Qed.

Lemma undo_loop_restores l : forall s d pre acc,
  faithful_seq d l ->
  st_tasks s = fold_left apply_local l d ->
  st_ops s = pre ++ map (pair false) l ->
  undo_loop s acc (rev l) = UndoDone (acc || has_change l) (set_ops (set_tasks s d) pre).
Proof.
  induction l as [|o l IH] using rev_ind; intros s d pre acc Hf Ht Hops.
  - cbn in *. rewrite app_nil_r in Hops.
    rewrite orb_false_r, <- Ht, <- Hops, set_tasks_id, set_ops_id. reflexivity.
  - rewrite rev_unit. cbn [undo_loop].
    apply faithful_seq_app in Hf as [Hf1 [Hf2 _]].
    rewrite fold_left_app in Ht. rewrite map_app, app_assoc in Hops.
    rewrite (apply_reverse_ops o s _ Hf2 Ht).
    rewrite (remove_operation_snoc (set_tasks s _) _ false o o Hops), bool_decide_eq_true_2 by reflexivity.
    cbn [negb andb].
    rewrite (IH _ d pre) by first [exact Hf1|reflexivity]. f_equal.
    unfold has_change. rewrite existsb_app. cbn [existsb].
    rewrite reverse_ops_nonempty, orb_false_r.
    destruct acc, (existsb _ l), (negb (is_undo_point o)); reflexivity.
Qed.

(** the acceptance test of [commit_reversed_operations] *)
Lemma accepted_iff_tail (local l : list op) :
  (length l <=? length local)%nat && bool_decide (drop (length local - length l) local = l) = true
  <-> exists p, local = p ++ l.
Proof.
  split.
  - intros [_ E%bool_decide_eq_true]%andb_true_iff.
    pose proof (take_drop (length local - length l) local) as H. rewrite E in H. eauto.
  - intros [p ->].
    rewrite app_length, Nat.add_sub, drop_app, bool_decide_eq_true_2, andb_true_r by reflexivity.
    apply Nat.leb_le, Nat.le_add_l.
Qed.

Lemma undo_log_tail s d pre l :
  l <> [] -> st_ops s = pre ++ map (pair false) l ->
  faithful_seq d l -> st_tasks s = fold_left apply_local l d ->
  commit_reversed_operations s l = UndoDone (has_change l) (set_ops (set_tasks s d) pre).
Proof.
  intros Hne Hops Hf Ht. unfold commit_reversed_operations.
  destruct l as [|o l0] eqn:El; [congruence|]. rewrite <- El in *.
  rewrite (proj2 (accepted_iff_tail _ l)) by (eexists; exact (unsynced_appended (set_ops s pre) s l Hops)).
  exact (undo_loop_restores l s d pre false Hf Ht Hops).
Qed.

Theorem undo_spec s d pre p l :
  l <> [] ->
  st_ops s = pre ++ map (pair false) (p ++ l) -> unsynced s = p ++ l ->
  faithful_seq d l -> st_tasks s = fold_left apply_local l d ->
  exists s', commit_reversed_operations s l = UndoDone (has_change l) s'
    /\ st_tasks s' = d
    /\ st_ops s' = pre ++ map (pair false) p
    /\ st_base s' = st_base s /\ st_ws s' = st_ws s.
Proof.
  intros Hne Hops _ Hf Ht. rewrite map_app, app_assoc in Hops.
  rewrite (undo_log_tail s d _ l Hne Hops Hf Ht). eexists. split; [reflexivity|]. repeat split.
Qed.

(** a refusal carries no new store: nothing changes *)
Theorem undo_mismatch_refused s l :
  (l = [] \/ ~ (exists p, unsynced s = p ++ l)) -> commit_reversed_operations s l = UndoRefused.
Proof.
  intros [->|Hno]; [reflexivity|]. unfold commit_reversed_operations.
  destruct l as [|o l0]; [reflexivity|].
  destruct (_ && _) eqn:E; [|reflexivity]. destruct Hno. apply accepted_iff_tail, E.
Qed.

Lemma unsynced_sync_complete s : unsynced (sync_complete s) = [].
Proof.
  unfold unsynced, sync_complete; cbn. induction (st_ops s) as [|[b o] l IH]; [reflexivity|].
  cbn. destruct (op_uuid o) as [u|]; [destruct (st_tasks s !! u)|]; cbn; exact IH.
Qed.

Theorem undo_after_sync_refused s l :
  unsynced s = [] -> get_undo_operations s = [] /\ commit_reversed_operations s l = UndoRefused.
Proof.
  intros H. split; [unfold get_undo_operations; rewrite H; reflexivity|].
  apply undo_mismatch_refused. destruct l as [|o l]; [left; reflexivity|right].
  intros (p & Hp). rewrite H in Hp. destruct p; discriminate.
Qed.

Lemma from_last_spec l :
  existsb is_undo_point l = true ->
  exists p r, l = p ++ OUndoPoint :: r /\ existsb is_undo_point r = false
              /\ from_last_undo_point l = OUndoPoint :: r.
Proof.
  induction l as [|o l IH]; [discriminate|]. cbn [from_last_undo_point existsb].
  destruct (existsb is_undo_point l) eqn:E.
  - intros _. destruct (IH eq_refl) as (p & r & -> & Hr & ->). exists (o :: p), r. auto.
  - destruct o; try discriminate. intros _. exists [], l. auto.
Qed.

(** What is offered for undoing ([get_undo_operations], src/taskdb/undo.rs:
    "the operations back to and including the last undo point, or since the
    last sync if no undo point is found"). *)
Lemma get_undo_spec s :
  existsb is_undo_point (unsynced s) = false /\ get_undo_operations s = unsynced s
  \/ exists p r, unsynced s = p ++ OUndoPoint :: r /\ existsb is_undo_point r = false
                 /\ get_undo_operations s = OUndoPoint :: r.
Proof.
  unfold get_undo_operations. destruct (existsb is_undo_point (unsynced s)) eqn:E;
    [right; exact (from_last_spec _ E)|left; auto].
Qed.

Theorem get_undo_is_tail s : exists p, unsynced s = p ++ get_undo_operations s.
Proof.
  destruct (get_undo_spec s) as [[_ ->]|(p & r & E & _ & ->)]; [exists []; reflexivity|exists p; exact E].
Qed.

Theorem get_undo_nonempty s : unsynced s <> [] -> get_undo_operations s <> [].
Proof.
  destruct (get_undo_spec s) as [[_ ->]|(p & r & _ & _ & ->)]; [exact (fun H => H)|discriminate].
Qed.

Theorem get_undo_back_to_last_point s :
  match get_undo_operations s with [] => True | _ :: r => existsb is_undo_point r = false end.
Proof.
  destruct (get_undo_spec s) as [[E ->]|(p & r & _ & Hr & ->)]; [|exact Hr].
  destruct (unsynced s) as [|o r]; [exact I|]. exact (proj2 (proj1 (orb_false_iff _ _) E)).
Qed.

(** strictly fewer operations remain unsynchronised, so repeating fetch and
    undo reaches the last sync after at most [length (unsynced s)] rounds *)
Theorem fetch_then_undo s d pre p :
  unsynced s <> [] ->
  unsynced s = p ++ get_undo_operations s ->
  st_ops s = pre ++ map (pair false) (unsynced s) ->
  faithful_seq d (get_undo_operations s) ->
  st_tasks s = fold_left apply_local (get_undo_operations s) d ->
  exists s', commit_reversed_operations s (get_undo_operations s)
               = UndoDone (has_change (get_undo_operations s)) s'
    /\ st_tasks s' = d
    /\ st_ops s' = pre ++ map (pair false) p
    /\ st_base s' = st_base s /\ st_ws s' = st_ws s
    /\ (length p < length (unsynced s))%nat.
Proof.
  intros Hne Hp Hops Hf Ht.
  pose proof (get_undo_nonempty s Hne) as Hl.
  destruct (undo_spec s d pre p (get_undo_operations s) Hl) as (s' & H1 & H2 & H3 & H4 & H5); try assumption.
  - rewrite Hops, <- Hp. reflexivity.
  - exists s'. repeat split; try assumption. rewrite Hp, app_length.
    destruct (get_undo_operations s); [congruence|cbn [length]; lia].
Qed.
