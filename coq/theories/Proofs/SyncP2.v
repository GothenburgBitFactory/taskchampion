(** Further facts about the sync machine: what is pushed is always the
    rebased list (C02), a replica cancels its own accepted version (C04), the
    abstract server never drives a replica out of sync (C02), and the stored
    replica changes only at a commit or at the successful end of a sync (C04). *)
From TC Require Import Model.Sync Proofs.TransformP Proofs.RebaseP Proofs.SyncP.

Lemma self_cancel x y : rebase transform x (x ++ y) = ([], y).
Proof.
  induction x as [|a x IH]; cbn [rebase rebase_one app]; [reflexivity|].
  rewrite transform_self, rebase_one_None, IH. reflexivity.
Qed.

Section WithBatching.
Variable sz : sop -> N.
Variable limit : N.
Notation sync_next' := (sync_next sz limit).
Notation sync_resume' := (sync_resume sz limit).
Notation sys_step' := (sys_step sz limit).
Notation run' := (run sz limit).

(** no step adds to the local list: an operation dropped by a rebase is never
    sent by a later retry of the same sync *)
Lemma sync_resume_local_sublist x p :
  sublist (x_local (sync_resume sz limit x p)) (x_local x).
Proof.
  unfold sync_resume.
  destruct (x_pc x); destruct p as [[[v d]|]|v ops|  |v g|v g| ]; cbn; try reflexivity.
  - pose proof (rebase_sublist ops (x_local x)) as H.
    destruct (rebase transform ops (x_local x)); exact H.
  - destruct (x_local x) eqn:E; cbn; rewrite ?E; reflexivity.
  - apply sublist_drop.
  - destruct (x_req x) as [q|]; [destruct (q =? v)%nat|]; reflexivity.
Qed.

Lemma push_is_prefix_of_rebased x b ops :
  sync_next sz limit x = inl (RAddVersion b ops) ->
  b = x_base x /\ ops `prefix_of` x_local x.
Proof.
  unfold sync_next. destruct (x_pc x); intros H; inv H.
  split; [reflexivity|]. exists (drop (length (take_batch sz limit (x_local x))) (x_local x)).
  symmetry. apply take_batch_prefix.
Qed.

(** the parent the server last insisted on is on the chain, and a sync that is
    about to push has pulled at least up to it *)
Definition req_inv (c : list (list sop)) (x : sst) : Prop :=
  forall q, x_req x = Some q -> q <= length c /\ (x_pc x = AtPush -> q <= x_base x).

Definition node_req_inv (c : list (list sop)) (n : node) : Prop :=
  match n_sync n with Some x => req_inv c x | None => True end.

(** the second clause is what [no_out_of_sync] reads off *)
Definition ReqInv (s : sys) : Prop :=
  Forall (node_req_inv (chain (srv s))) (nodes s)
  /\ Forall (fun ir => ir.2 = SyncOk) (results s).

Lemma req_inv_keep c c' x x' :
  req_inv c x -> x_req x' = x_req x -> length c <= length c' -> x_pc x' <> AtPush ->
  req_inv c' x'.
Proof.
  intros H E Hl Hp q Hq. rewrite E in Hq. destruct (H q Hq) as [H1 _].
  split; [lia|]. intros; contradiction.
Qed.

Lemma node_req_inv_prefix c c' n : c `prefix_of` c' -> node_req_inv c n -> node_req_inv c' n.
Proof.
  unfold node_req_inv. intros Hc%prefix_length. destruct (n_sync n) as [x|]; [|auto].
  intros H q Hq. destruct (H q Hq) as [H1 H2]. split; [lia|exact H2].
Qed.

Lemma sync_step_req_inv sv x g q :
  sync_next' x = inl q -> x_base x <= length (chain sv) -> req_inv (chain sv) x ->
  req_inv (chain (srv_step sv g q).2) (sync_resume' x (srv_step sv g q).1)
  /\ forall r, x_pc (sync_resume' x (srv_step sv g q).1) = Done r -> r = SyncOk.
Proof.
  intros Hn B1 HR. unfold sync_next in Hn. unfold sync_resume.
  destruct (x_pc x) eqn:Epc; inv Hn.
  - cbn [srv_step fst snd].
    destruct (snap sv) as [[v d]|]; (split; [|discriminate]);
      (apply (req_inv_keep _ _ _ _ HR); [reflexivity|lia|discriminate]).
  - cbn [srv_step]. destruct (chain sv !! x_base x) as [ops|] eqn:Ek; cbn [fst snd].
    + destruct (rebase' ops (x_local x)). split; [|discriminate].
      apply (req_inv_keep _ _ _ _ HR); [reflexivity|lia|discriminate].
    + apply lookup_ge_None in Ek. destruct (x_local x).
      * split; [|intros r [= <-]; reflexivity]. apply (req_inv_keep _ _ _ _ HR); [reflexivity|lia|discriminate].
      * split; [|discriminate]. intros r Hr. destruct (HR r Hr) as [H1 _]. split; [exact H1|].
        intros _. cbn [set_pc x_base]. lia.
  - destruct (add_version_cases sv g (x_base x) (take_batch sz limit (x_local x)))
      as [[_ ->]|[Hb ->]]; cbn [fst snd chain].
    + destruct (drop _ _); [destruct (urg_geb _ _)|]; (split; [|discriminate]);
        (apply (req_inv_keep _ _ _ _ HR); [reflexivity|rewrite app_length; lia|discriminate]).
    + (* rejected: the parent asked for before is below the base, so it is not this one *)
      assert (x_req x <> Some (length (chain sv))) as Hq.
      { intros Hq. destruct (HR _ Hq) as [_ H2]. specialize (H2 Epc). lia. }
      destruct (x_req x) as [r|]; [destruct (Nat.eqb_spec r (length (chain sv))); [congruence|]|];
        (split; [intros r' [= <-]; split; [lia|discriminate]|discriminate]).
  - destruct (add_snapshot_cases sv g (x_base x) (x_tasks x)) as (sv' & -> & Ec & _).
    cbn [fst snd]. rewrite Ec. split; [|discriminate].
    apply (req_inv_keep _ _ _ _ HR); [reflexivity|lia|discriminate].
Qed.

Lemma ReqInv_change s sv' i nd rs :
  ReqInv s -> chain (srv s) `prefix_of` chain sv' -> node_req_inv (chain sv') nd ->
  Forall (fun ir => ir.2 = SyncOk) rs ->
  ReqInv {| srv := sv'; nodes := <[i := nd]> (nodes s); results := rs |}.
Proof.
  intros [Hn _] Hc Hnd Hrs. split; [|exact Hrs].
  eapply nodes_step; [|exact Hn|exact Hnd]. intros n. apply node_req_inv_prefix, Hc.
Qed.

Lemma sys_step_req_inv s e : Inv s -> ReqInv s -> ReqInv (sys_step' s e).
Proof.
  intros [Hsrv Hn] H2. pose proof H2 as [Hn2 Hres].
  destruct e as [i ops|i avoid wst|i g|i|i g|fops]; cbn [sys_step].
  1-5: destruct (nodes s !! i) as [[r [x|]]|] eqn:Ei; try exact H2.
  - apply ReqInv_change; [exact H2|reflexivity|exact I|exact Hres].
  - apply ReqInv_change; [exact H2|reflexivity|intros q [=]|exact Hres].
  - destruct (sync_next' x) as [q|res] eqn:En; [|exact H2].
    pose proof (Forall_lookup_1 _ _ _ _ Hn Ei) as [_ [HB _]].
    pose proof (sync_step_req_inv (srv s) x g q En HB (Forall_lookup_1 _ _ _ _ Hn2 Ei)) as [T1 T2].
    pose proof (srv_step_grows (srv s) g q) as S3.
    destruct (srv_step (srv s) g q) as [p srv']. cbn [fst snd] in *.
    destruct (x_pc (sync_resume' x p)) as [ | | | |res].
    1-4: apply ReqInv_change; [exact H2|exact S3|exact T1|exact Hres].
    rewrite (T2 res eq_refl). apply ReqInv_change; [exact H2|exact S3|exact I|].
    constructor; [reflexivity|exact Hres].
  - apply ReqInv_change; [exact H2|reflexivity|exact I|exact Hres].
  - destruct (sync_next' x) as [q|res] eqn:En; [|exact H2].
    pose proof (srv_step_grows (srv s) g q) as S3.
    destruct (srv_step (srv s) g q) as [p srv']. apply ReqInv_change; [exact H2|exact S3|exact I|exact Hres].
  - split; [|exact Hres]. cbn [srv nodes chain].
    eapply Forall_impl; [exact Hn2|]. intros n. apply node_req_inv_prefix, prefix_app_r. reflexivity.
Qed.

Lemma ReqInv_init n : ReqInv (sys0 n).
Proof. split; cbn; [apply Forall_replicate; exact I|constructor]. Qed.

Lemma run_req_inv h s :
  Inv s -> ReqInv s -> wf_history sz limit s h = true -> Inv (run' s h) /\ ReqInv (run' s h).
Proof.
  intros H1 H2. apply (run_invariant sz limit (fun s => Inv s /\ ReqInv s)); [|auto].
  intros s' e He [H1' H2']. split; [apply sys_step_inv|apply sys_step_req_inv]; assumption.
Qed.

Theorem no_out_of_sync n h i r :
  wf_history sz limit (sys0 n) h = true ->
  In (i, r) (results (run' (sys0 n) h)) -> r = SyncOk.
Proof.
  intros Hwf Hin.
  destruct (run_req_inv h (sys0 n) (Inv_init n) (ReqInv_init n) Hwf) as (_ & _ & HR).
  rewrite Forall_forall in HR. apply elem_of_list_In in Hin. exact (HR _ Hin).
Qed.

End WithBatching.

Lemma stored_replica_changes sz limit s e :
  n_rep <$> nodes (sys_step sz limit s e) = n_rep <$> nodes s
  \/ (exists i ops, e = ECommit i ops)
  \/ (exists i g, e = EStep i g /\ results (sys_step sz limit s e) = (i, SyncOk) :: results s).
Proof.
  (* every other event puts a node with the same replica in the place of one node *)
  assert (forall i r y y', nodes s !! i = Some {| n_rep := r; n_sync := y |} ->
            n_rep <$> <[i := {| n_rep := r; n_sync := y' |}]> (nodes s) = n_rep <$> nodes s) as Same.
  { intros i r y y' Hi. rewrite list_fmap_insert. apply list_insert_id.
    rewrite list_lookup_fmap, Hi. reflexivity. }
  destruct e as [i ops|i avoid wst|i g|i|i g|fops]; cbn [sys_step]; [eauto| ..|left; reflexivity];
    destruct (nodes s !! i) as [[r [x|]]|] eqn:Ei; try (left; reflexivity).
  - left. exact (Same _ _ _ _ Ei).
  - (* a request answered: the replica is replaced only when the sync ends with [SyncOk] *)
    destruct (sync_next sz limit x) as [q|]; [|left; reflexivity]. destruct (srv_step (srv s) g q) as [p srv'].
    destruct (x_pc (sync_resume sz limit x p)) as [ | | | |[ | | ]]; [..|right; right; eauto| |];
      left; exact (Same _ _ _ _ Ei).
  - left. exact (Same _ _ _ _ Ei).
  - destruct (sync_next sz limit x) as [q|]; [|left; reflexivity]. destruct (srv_step (srv s) g q) as [p srv'].
    left. exact (Same _ _ _ _ Ei).
Qed.

Lemma same_replica (ns ns' : list node) i nd :
  n_rep <$> ns' = n_rep <$> ns -> ns !! i = Some nd ->
  exists nd', ns' !! i = Some nd' /\ n_rep nd' = n_rep nd.
Proof.
  intros E Hi. apply (f_equal (.!! i)) in E. rewrite !list_lookup_fmap, Hi in E.
  destruct (ns' !! i) as [nd'|]; inv E. eauto.
Qed.

Lemma fault_keeps_replica sz limit s i g nd e :
  e = EAbandon i \/ e = ELost i g ->
  nodes s !! i = Some nd ->
  exists nd', nodes (sys_step sz limit s e) !! i = Some nd' /\ n_rep nd' = n_rep nd.
Proof.
  intros He Hi.
  destruct (stored_replica_changes sz limit s e) as [E|[(j & ops & ->)|(j & g' & -> & _)]];
    [exact (same_replica _ _ _ _ E Hi)|destruct He; discriminate..].
Qed.

Lemma unfinished_step_keeps_replica sz limit s i g nd :
  nodes s !! i = Some nd ->
  results (sys_step sz limit s (EStep i g)) = results s ->
  exists nd', nodes (sys_step sz limit s (EStep i g)) !! i = Some nd' /\ n_rep nd' = n_rep nd.
Proof.
  intros Hi Hres.
  destruct (stored_replica_changes sz limit s (EStep i g)) as [E|[(j & ops & [=])|(j & g' & _ & E)]];
    [exact (same_replica _ _ _ _ E Hi)|].
  rewrite Hres in E. apply (f_equal length) in E. cbn in E. lia.
Qed.
