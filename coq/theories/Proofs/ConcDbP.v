(** Concurrent commits on one store (C17): what the lock discipline and the
    commit specification give together. *)
From TC Require Import Model.TaskDb Model.Conc Proofs.StorageP Proofs.ConcP Proofs.CommitP.

Section P.
Variable status : N.
Variable is_pr : N -> bool.

(** a call = one committed batch; a transaction may hold several *)
Definition cstepdb (s : store) (ops : list op) : store := commit_operations status is_pr s ops.

Definition ws_nodup (s : store) : Prop := NoDup (omap id (st_ws s)).

Lemma commit_keeps_ws_nodup s ops : ws_nodup s -> ws_nodup (cstepdb s ops).
Proof.
  unfold ws_nodup, cstepdb. intros H.
  pose proof (commit_spec status is_pr s ops) as (_ & _ & _ & _ & added & Hws & Hnd & Hnew & _).
  rewrite Hws, omap_app, omap_id_map_Some. apply NoDup_app. split; [exact H|]. split; [|exact Hnd].
  intros u Hu%elem_of_omap_id [_ Hn]%Hnew. exact (Hn Hu).
Qed.

(** the tasks are the replay of the unsynced log over the synchronised state
    [base], and no task is in the working set twice *)
Definition db_inv (base : db) (s : store) : Prop :=
  st_tasks s = applyl base (sync_form (unsynced s)) /\ ws_nodup s.

Lemma commit_keeps_db_inv base s ops : db_inv base s -> db_inv base (cstepdb s ops).
Proof.
  intros [H1 H2]. split; [apply commit_keeps_replay, H1|apply commit_keeps_ws_nodup, H2].
Qed.

Lemma atomic_unsynced cs : forall s, unsynced (atomic cstepdb s cs) = unsynced s ++ concat cs.
Proof.
  induction cs as [|ops cs IH]; intros s; cbn; [rewrite app_nil_r; reflexivity|].
  unfold atomic in IH. rewrite IH. unfold cstepdb.
  pose proof (commit_spec status is_pr s ops) as (_ & C2 & _). rewrite C2, <- app_assoc. reflexivity.
Qed.

(** Any schedule of any number of handles committing batches: the stored tasks
    are the replay of the recorded operations; the recorded operations are
    exactly the batches of the committed transactions, whole, once each, in
    commit order; no working-set entry is duplicated. *)
Theorem concurrent_commits base s l :
  db_inv base s ->
  let s' := cpersist (crun cstepdb {| cpersist := s; cholder := None |} l) in
  db_inv base s'
  /\ unsynced s' = unsynced s ++ concat (concat (committed None l)).
Proof.
  intros H0. cbn zeta. split; [|rewrite serial_equivalence, fold_atomic; apply atomic_unsynced].
  apply invariant_of_calls; [apply commit_keeps_db_inv|exact H0].
Qed.
End P.
