(** Facts about the storage specification (Model/Storage.v) shared by the
    proofs over it.  [strip_trailing_none l] is the one list [s] with
    [l = s ++ blanks] that is empty or ends in a task ([strip_decompose],
    [strip_normal]; conversely [strip_app_nones], [strip_ends_some]). *)
From TC Require Import Model.Storage.

Lemma set_tasks_id s : set_tasks s (st_tasks s) = s.
Proof. destruct s; reflexivity. Qed.

Lemma set_ws_id s : set_ws s (st_ws s) = s.
Proof. destruct s; reflexivity. Qed.

Lemma set_ops_id s : set_ops s (st_ops s) = s.
Proof. destruct s; reflexivity. Qed.

Lemma unsynced_appended s s' ops :
  st_ops s' = st_ops s ++ map (pair false) ops -> unsynced s' = unsynced s ++ ops.
Proof.
  unfold unsynced. intros ->. rewrite omap_app. f_equal.
  induction ops as [|o ops IH]; cbn; congruence.
Qed.

Lemma remove_operation_nil s o : st_ops s = [] -> remove_operation s o = None.
Proof. unfold remove_operation. intros ->. reflexivity. Qed.

Lemma remove_operation_snoc s l b x o :
  st_ops s = l ++ [(b, x)] ->
  remove_operation s o = if negb b && bool_decide (x = o) then Some (set_ops s l) else None.
Proof. unfold remove_operation. intros ->. rewrite last_snoc, removelast_last. destruct b; reflexivity. Qed.

Lemma elem_of_omap_id {A} (l : list (option A)) u : u ∈ omap id l <-> Some u ∈ l.
Proof.
  rewrite elem_of_list_omap. split; [|eauto].
  intros (x & Hx & Hid). cbn in Hid. subst x. exact Hx.
Qed.

Lemma omap_id_map_Some {A} (l : list A) : omap id (map Some l) = l.
Proof. induction l as [|x l IH]; cbn; [reflexivity|]. f_equal. exact IH. Qed.

Lemma strip_app_nones (l : list (option N)) k :
  strip_trailing_none (l ++ replicate k None) = strip_trailing_none l.
Proof.
  induction l as [|x l IH]; cbn [app strip_trailing_none]; [|rewrite IH; reflexivity].
  induction k as [|k IH]; [reflexivity|]. cbn [replicate strip_trailing_none]. rewrite IH. reflexivity.
Qed.

Lemma strip_decompose (l : list (option N)) :
  exists s k, l = s ++ replicate k None /\ strip_trailing_none l = s.
Proof.
  induction l as [|x l (s & k & IH & Hs)]; [exists [], 0%nat; split; reflexivity|].
  cbn [strip_trailing_none]. rewrite Hs.
  (* a blank in front of nothing but blanks is one more blank; any other entry stays *)
  destruct x as [u|], s as [|y s];
    [exists [Some u], k|exists (Some u :: y :: s), k|exists [], (S k)|exists (None :: y :: s), k];
    (split; [|reflexivity]); cbn; f_equal; exact IH.
Qed.

Lemma strip_ends_some (l : list (option N)) u : last l = Some (Some u) -> strip_trailing_none l = l.
Proof.
  induction l as [|x [|y l] IH]; [discriminate|intros [= ->]; reflexivity|].
  intros Hl. cbn [strip_trailing_none] in *. rewrite (IH Hl). reflexivity.
Qed.

Lemma strip_normal (l : list (option N)) :
  strip_trailing_none l = [] \/ exists u, last (strip_trailing_none l) = Some (Some u).
Proof.
  induction l as [|x l IH]; [left; reflexivity|]. cbn [strip_trailing_none].
  destruct (strip_trailing_none l) as [|y l'].
  - destruct x as [u|]; [right; exists u|left]; reflexivity.
  - right. destruct IH as [IH|IH]; [discriminate|exact IH].
Qed.

Lemma strip_fixpoint_tail x (l : list (option N)) :
  strip_trailing_none (x :: l) = x :: l -> strip_trailing_none l = l.
Proof. cbn. destruct (strip_trailing_none l), x; congruence. Qed.

Lemma omap_id_strip (l : list (option N)) : omap id (strip_trailing_none l) = omap id l.
Proof.
  induction l as [|x l IH]; [reflexivity|]. cbn [strip_trailing_none].
  destruct (strip_trailing_none l), x; cbn in *; congruence.
Qed.

Lemma elem_of_strip_some (l : list (option N)) u : Some u ∈ strip_trailing_none l <-> Some u ∈ l.
Proof. rewrite <- !elem_of_omap_id, omap_id_strip. reflexivity. Qed.

Lemma strip_lookup_some (l : list (option N)) i u :
  l !! i = Some (Some u) -> strip_trailing_none l !! i = Some (Some u).
Proof.
  destruct (strip_decompose l) as (s & k & -> & ->).
  intros [H|[_ H]]%lookup_app_Some; [exact H|]. apply lookup_replicate in H as [[=] _].
Qed.

Lemma strip_app_somes (l l' : list (option N)) :
  strip_trailing_none l = l -> Forall is_Some l' -> strip_trailing_none (l ++ l') = l ++ l'.
Proof.
  intros Hl HF. destruct l' as [|x l' _] using rev_ind; [rewrite app_nil_r; exact Hl|].
  apply Forall_app in HF as [_ [[u ->] _]%Forall_cons]. apply (strip_ends_some _ u).
  rewrite app_assoc. apply last_snoc.
Qed.

Lemma strip_all_some (l : list (option N)) : Forall is_Some l -> strip_trailing_none l = l.
Proof. apply (strip_app_somes []). reflexivity. Qed.

Lemma strip_insert (l : list (option N)) i x :
  (i < length (strip_trailing_none l))%nat ->
  strip_trailing_none (<[i := x]> (strip_trailing_none l)) = strip_trailing_none (<[i := x]> l).
Proof.
  destruct (strip_decompose l) as (s & k & -> & ->).
  intros Hi. rewrite insert_app_l, strip_app_nones by exact Hi. reflexivity.
Qed.

Lemma strip_blank (l : list (option N)) : (forall k, l !! k ≫= id = None) -> strip_trailing_none l = [].
Proof.
  induction l as [|x l IH]; intros H; [reflexivity|]. cbn [strip_trailing_none].
  rewrite IH by (intros k; apply (H (S k))). specialize (H 0%nat). cbn in H. subst x. reflexivity.
Qed.

(** the normal form depends only on which task each position holds, blanks
    and positions past the end counting alike *)
Lemma strip_ext (l1 l2 : list (option N)) :
  (forall k, l1 !! k ≫= id = l2 !! k ≫= id) -> strip_trailing_none l1 = strip_trailing_none l2.
Proof.
  revert l2; induction l1 as [|x l1 IH]; intros l2 H.
  - symmetry. apply strip_blank. intros k. rewrite <- H. reflexivity.
  - destruct l2 as [|y l2]; [apply strip_blank; exact H|].
    pose proof (H 0%nat) as H0. cbn in H0. subst y. cbn [strip_trailing_none].
    rewrite (IH l2) by (intros k; apply (H (S k))). reflexivity.
Qed.
