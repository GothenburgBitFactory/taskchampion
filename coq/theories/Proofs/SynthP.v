(** The synthetic tags and the dependency map reflect exactly the stored
    status, start/wait times and dependency keys, and the tags follow the
    mutators (C19). *)
From TC Require Import Model.TaskMut Proofs.TaskP Proofs.TaskMutP.
From Coq Require Import Strings.String.

Lemma fold_left_orb {A} (g : A -> bool) l b : fold_left (fun acc e => acc || g e) l b = b || existsb g l.
Proof.
  revert b; induction l as [|e l IH]; intros b; cbn; [symmetry; apply orb_false_r|].
  rewrite IH. symmetry. apply orb_assoc.
Qed.

(** On an explicit table the [fold_left] computes to the left-nested
    disjunction [(k = k1) && c1 || (k = k2) && c2 || …] that [synthetic_tags] is
    written with. *)
Lemma elem_of_filter_table {K} `{EqDecision K} (table : list (K * bool)) x :
  x ∈ filter (fun k => fold_left (fun acc e => acc || (bool_decide (k = e.1) && e.2)) table false = true) table.*1
  <-> (x, true) ∈ table.
Proof.
  rewrite elem_of_list_filter, fold_left_orb, orb_false_l, existsb_exists. split.
  - intros [([k c] & Hin%elem_of_list_In & [Hk%bool_decide_eq_true Hc]%andb_true_iff) _].
    cbn in Hk, Hc. subst. exact Hin.
  - intros Hin. split.
    + exists (x, true). rewrite <- elem_of_list_In. split; [exact Hin|]. cbn. rewrite bool_decide_eq_true_2; reflexivity.
    + exact (elem_of_list_fmap_1 fst _ _ Hin).
Qed.

Lemma status_of_pending v : status_of v = StPending -> v = s2l "pending".
Proof. unfold status_of. repeat case_bool_decide; congruence. Qed.

Section Synth.
Variable ts_min ts_max now : Z.
Variable parse_uuid : list N -> option N.
Notation synth := (synthetic_tags ts_min ts_max now).

Lemma is_blocked_spec dm u : is_blocked dm u = true <-> exists d, (u, d) ∈ dm.
Proof.
  unfold is_blocked. rewrite existsb_exists. split.
  - intros ([a d] & H%elem_of_list_In & <-%N.eqb_eq). eauto.
  - intros [d H%elem_of_list_In]. exists (u, d). split; [exact H|apply N.eqb_refl].
Qed.

Lemma is_blocking_spec dm u : is_blocking dm u = true <-> exists a, (a, u) ∈ dm.
Proof.
  unfold is_blocking. rewrite existsb_exists. split.
  - intros ([a d] & H%elem_of_list_In & <-%N.eqb_eq). eauto.
  - intros [a H%elem_of_list_In]. exists (a, u). split; [exact H|apply N.eqb_refl].
Qed.

Definition synthetic_table (t : tmap) (dm : list (N * N)) (u : N) : list (list N * bool) :=
  [(s2l "WAITING", is_waiting ts_min ts_max now t);
   (s2l "ACTIVE", is_active t);
   (s2l "PENDING", bool_decide (get_status t = StPending));
   (s2l "COMPLETED", bool_decide (get_status t = StCompleted));
   (s2l "DELETED", bool_decide (get_status t = StDeleted));
   (s2l "BLOCKED", is_blocked dm u);
   (s2l "UNBLOCKED", negb (is_blocked dm u));
   (s2l "BLOCKING", is_blocking dm u)].

Lemma elem_of_synthetic_tags t dm u x : x ∈ synth t dm u <-> (x, true) ∈ synthetic_table t dm u.
Proof. exact (elem_of_filter_table (synthetic_table t dm u) x). Qed.

Lemma synthetic_names_NoDup : NoDup synthetic_names.
Proof. apply (bool_decide_unpack _). vm_compute. exact I. Qed.

(** the names being distinct, a name's own entry decides whether it is carried *)
Lemma synth_iff_entry t dm u i x c :
  synthetic_table t dm u !! i = Some (x, c) -> (x ∈ synth t dm u <-> c = true).
Proof.
  intros Hi%elem_of_list_lookup_2. rewrite elem_of_synthetic_tags. split; [|intros ->; exact Hi].
  (* distinct keys: the table is an association list, read here as a map *)
  intros Ht. apply (elem_of_list_to_map_1 (M:=gmap _) (synthetic_table t dm u) _ _ synthetic_names_NoDup) in Hi, Ht.
  congruence.
Qed.

Theorem synth_only_names t dm u x : x ∈ synth t dm u -> x ∈ synthetic_names.
Proof. intros H%elem_of_synthetic_tags. exact (elem_of_list_fmap_1 fst _ _ H). Qed.

Theorem synth_pending t dm u : s2l "PENDING" ∈ synth t dm u <-> get_status t = StPending.
Proof. rewrite (synth_iff_entry t dm u 2 _ _ eq_refl). apply bool_decide_eq_true. Qed.
Theorem synth_completed t dm u : s2l "COMPLETED" ∈ synth t dm u <-> get_status t = StCompleted.
Proof. rewrite (synth_iff_entry t dm u 3 _ _ eq_refl). apply bool_decide_eq_true. Qed.
Theorem synth_deleted t dm u : s2l "DELETED" ∈ synth t dm u <-> get_status t = StDeleted.
Proof. rewrite (synth_iff_entry t dm u 4 _ _ eq_refl). apply bool_decide_eq_true. Qed.

Theorem synth_active t dm u : s2l "ACTIVE" ∈ synth t dm u <-> is_Some (t !! s2l "start").
Proof. rewrite (synth_iff_entry t dm u 1 _ _ eq_refl). apply bool_decide_eq_true. Qed.

Theorem synth_waiting t dm u :
  s2l "WAITING" ∈ synth t dm u <-> exists z, get_timestamp ts_min ts_max t (s2l "wait") = Some z /\ (now < z)%Z.
Proof. rewrite (synth_iff_entry t dm u 0 _ _ eq_refl). apply match_option_true. intros z. apply Z.ltb_lt. Qed.

Theorem synth_blocked t dm u : s2l "BLOCKED" ∈ synth t dm u <-> exists d, (u, d) ∈ dm.
Proof. rewrite (synth_iff_entry t dm u 5 _ _ eq_refl). apply is_blocked_spec. Qed.

Theorem synth_unblocked t dm u : s2l "UNBLOCKED" ∈ synth t dm u <-> ~ exists d, (u, d) ∈ dm.
Proof. rewrite (synth_iff_entry t dm u 6 _ _ eq_refl), negb_true_iff, <- not_true_iff_false, is_blocked_spec. reflexivity. Qed.

Theorem synth_blocking t dm u : s2l "BLOCKING" ∈ synth t dm u <-> exists a, (a, u) ∈ dm.
Proof. rewrite (synth_iff_entry t dm u 7 _ _ eq_refl). apply is_blocking_spec. Qed.

Theorem blocked_xor_unblocked t dm u :
  (s2l "BLOCKED" ∈ synth t dm u \/ s2l "UNBLOCKED" ∈ synth t dm u) /\
  ~ (s2l "BLOCKED" ∈ synth t dm u /\ s2l "UNBLOCKED" ∈ synth t dm u).
Proof.
  rewrite synth_blocked, synth_unblocked, <- is_blocked_spec.
  destruct (is_blocked dm u); intuition discriminate.
Qed.

(** the dependency map: an edge exactly for a working-set task that stores a
    dependency key naming a task whose stored status is pending *)
Theorem depmap_elem (tasks : gmap N tmap) ws u d :
  (u, d) ∈ depmap parse_uuid tasks ws <->
  Some u ∈ tail ws /\ exists t, tasks !! u = Some t /\ d ∈ dependencies parse_uuid t /\ is_pending_task tasks d = true.
Proof.
  (* [flat_map] is the bind of std++, by conversion *)
  unfold depmap. split.
  - intros ([a|] & Hin & Hx)%elem_of_list_bind; [|inversion Hin].
    destruct (tasks !! a) as [t|] eqn:Ht; [|inversion Hin].
    apply elem_of_list_omap in Hin as (d' & Hd & Hp).
    destruct (is_pending_task tasks d') eqn:Hpe; [|discriminate]. injection Hp as <- <-. eauto.
  - intros (Hx & t & Ht & Hd & Hp). apply elem_of_list_bind. exists (Some u). split; [|exact Hx].
    rewrite Ht. apply elem_of_list_omap. exists d. rewrite Hp. auto.
Qed.

Theorem gone_or_closed_blocks_nobody (tasks : gmap N tmap) ws u d :
  (tasks !! d = None \/ exists t, tasks !! d = Some t /\ t !! k_status <> Some (s2l "pending")) ->
  (u, d) ∉ depmap parse_uuid tasks ws.
Proof.
  intros H (_ & _ & _ & _ & Hp)%depmap_elem. unfold is_pending_task in Hp.
  destruct H as [H|(t & Ht & Hs)]; rewrite ?H, ?Ht in Hp; [discriminate|].
  destruct (t !! k_status) as [v|]; [|discriminate].
  apply bool_decide_eq_true, status_of_pending in Hp as ->. apply Hs. reflexivity.
Qed.
End Synth.

Section SM.
Variable nowstr : list N.
Variable ts_min ts_max now : Z.
Notation synth := (synthetic_tags ts_min ts_max now).

Lemma status_of_str st : (forall v, st <> StUnknown v) -> status_of (status_str st) = st.
Proof. intros Hst. destruct st as [| | | |v]; try reflexivity. destruct (Hst v eq_refl). Qed.

Lemma get_status_set_status s st :
  (forall v, st <> StUnknown v) -> get_status (ts_map (set_status nowstr s st)) = st.
Proof. intros Hst. unfold get_status, k_status. rewrite set_status_status. apply status_of_str, Hst. Qed.

Theorem status_tag_follows s dm u :
  (s2l "PENDING" ∈ synth (ts_map (set_status nowstr s StPending)) dm u) /\
  (s2l "COMPLETED" ∈ synth (ts_map (set_status nowstr s StCompleted)) dm u) /\
  (s2l "DELETED" ∈ synth (ts_map (set_status nowstr s StDeleted)) dm u).
Proof.
  repeat split; [apply synth_pending|apply synth_completed|apply synth_deleted];
    apply get_status_set_status; discriminate.
Qed.

Theorem status_tag_exclusive s dm u :
  s2l "PENDING" ∉ synth (ts_map (set_status nowstr s StCompleted)) dm u /\
  s2l "PENDING" ∉ synth (ts_map (set_status nowstr s StDeleted)) dm u /\
  s2l "COMPLETED" ∉ synth (ts_map (set_status nowstr s StPending)) dm u /\
  s2l "COMPLETED" ∉ synth (ts_map (set_status nowstr s StDeleted)) dm u /\
  s2l "DELETED" ∉ synth (ts_map (set_status nowstr s StPending)) dm u /\
  s2l "DELETED" ∉ synth (ts_map (set_status nowstr s StCompleted)) dm u.
Proof.
  repeat split; intros H; (apply synth_pending in H || apply synth_completed in H || apply synth_deleted in H);
    rewrite get_status_set_status in H by discriminate; discriminate.
Qed.

Theorem start_makes_active s s' dm u :
  run_mutator nowstr s MStart = Some s' -> s2l "ACTIVE" ∈ synth (ts_map s') dm u.
Proof.
  intros <-%(inj Some). apply synth_active. unfold has. case_bool_decide as Hs; [exact Hs|].
  rewrite set_value_reads_back. eauto.
Qed.

Theorem stop_clears_active s s' dm u :
  run_mutator nowstr s MStop = Some s' -> s2l "ACTIVE" ∉ synth (ts_map s') dm u.
Proof.
  intros <-%(inj Some) H%synth_active. rewrite set_value_reads_back in H. destruct H as [x Hx]. discriminate.
Qed.
End SM.
