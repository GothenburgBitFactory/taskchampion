(** The sealed-envelope format (C13).  All statements hold for ARBITRARY [list N] arguments: no hypothesis that
    list elements are < 256, and no hypothesis on the length of the key or of
    the version id.  The only length hypothesis on an input is
    [length nonce = 12] (needed so that the opener splits the envelope where
    the sealer joined it). *)

From Coq Require Import List ZArith Lia.
From TC Require Import Model.Crypto.Bytes Model.Crypto.Chacha20
  Model.Crypto.Aead Model.Crypto.Envelope.
Import ListNotations.

Theorem aad_layout : forall vid, make_aad vid = 1%N :: vid.
Proof. reflexivity. Qed.
Print Assumptions aad_layout.

(** [length nonce = 12] is not needed for the layout itself: it is there so
    that the statement reads as the documented format. *)
Theorem envelope_layout : forall key nonce vid payload,
  length nonce = 12 ->
  exists c t,
    seal key nonce vid payload = 1%N :: nonce ++ c ++ t /\
    length c = length payload /\ length t = 16.
Proof.
  intros key nonce vid payload _.
  exists (fst (aead_seal key nonce (make_aad vid) payload)),
         (snd (aead_seal key nonce (make_aad vid) payload)).
  split; [reflexivity|]. split.
  - apply aead_seal_fst_length.
  - apply aead_seal_snd_length.
Qed.
Print Assumptions envelope_layout.

Corollary seal_length : forall key nonce vid payload,
  length (seal key nonce vid payload) = 1 + length nonce + length payload + 16.
Proof.
  intros. unfold seal. cbn [length]. rewrite !app_length.
  rewrite aead_seal_fst_length, aead_seal_snd_length. lia.
Qed.

Lemma unseal_parse key vid nonce c t :
  length nonce = 12 -> length t = 16 ->
  unseal key vid (1%N :: nonce ++ c ++ t) =
  aead_open key nonce (make_aad vid) c t.
Proof.
  intros Hn Ht. unfold unseal, NONCE_LEN, TAG_LEN, ENVELOPE_VERSION.
  rewrite (proj2 (Nat.leb_gt _ _)) by (cbn [length]; rewrite !app_length; lia).
  rewrite N.eqb_refl. cbn [negb].
  rewrite (firstn_app_exact nonce _ 12 Hn), (skipn_app_exact nonce _ 12 Hn), app_length, Ht.
  rewrite (proj2 (Nat.ltb_ge _ _)) by lia.
  replace (length c + 16 - 16) with (length c) by lia.
  rewrite (firstn_app_exact c t _ eq_refl), (skipn_app_exact c t _ eq_refl). reflexivity.
Qed.

Lemma unseal_shape key vid s p :
  unseal key vid s = Some p ->
  exists nonce c t, s = 1%N :: nonce ++ c ++ t /\ length nonce = 12 /\ length t = 16.
Proof.
  unfold unseal, NONCE_LEN, TAG_LEN, ENVELOPE_VERSION.
  destruct (Nat.leb_spec (length s) (1 + 12)) as [|Hlen]; [discriminate|].
  destruct s as [|v body]; [discriminate|]. cbn [length] in Hlen.
  destruct (N.eqb_spec v 1%N) as [->|]; cbn [negb]; [|discriminate].
  set (ct := skipn 12 body). destruct (Nat.ltb_spec (length ct) 16) as [|Hct]; [discriminate|]. intros _.
  exists (firstn 12 body), (firstn (length ct - 16) ct), (skipn (length ct - 16) ct).
  rewrite !firstn_skipn, firstn_length, skipn_length. repeat split; lia.
Qed.

Lemma unseal_None key vid s :
  (forall nonce c t, length nonce = 12 -> length t = 16 -> s <> 1%N :: nonce ++ c ++ t) ->
  unseal key vid s = None.
Proof.
  intros H. destruct (unseal key vid s) as [p|] eqn:E; [|reflexivity].
  destruct (unseal_shape _ _ _ _ E) as (nonce & c & t & Hs & Hn & Ht). destruct (H nonce c t Hn Ht Hs).
Qed.

Theorem unseal_seal : forall key nonce vid payload,
  length nonce = 12 ->
  unseal key vid (seal key nonce vid payload) = Some payload.
Proof.
  intros key nonce vid payload Hn. unfold seal, ENVELOPE_VERSION.
  rewrite unseal_parse; auto using aead_seal_snd_length.
  apply aead_open_seal.
Qed.
Print Assumptions unseal_seal.

(** Anything shorter than header, nonce and tag together is rejected. *)
Theorem unseal_rejects_truncated : forall key vid s,
  (length s < 1 + 12 + 16)%nat -> unseal key vid s = None.
Proof.
  intros key vid s H. apply unseal_None. intros nonce c t Hn Ht ->.
  cbn [length] in H. rewrite !app_length in H. lia.
Qed.
Print Assumptions unseal_rejects_truncated.

Theorem unseal_rejects_short : forall key vid s,
  (length s <= 13)%nat -> unseal key vid s = None.
Proof. intros key vid s H. apply unseal_rejects_truncated. lia. Qed.
Print Assumptions unseal_rejects_short.

Theorem unseal_rejects_format : forall key vid b s,
  b <> 1%N -> unseal key vid (b :: s) = None.
Proof. intros key vid b s Hb. apply unseal_None. congruence. Qed.
Print Assumptions unseal_rejects_format.

(** If [unseal key vid s] accepts and returns [p], then [s] has the
    documented shape  0x01 || nonce(12) || c || t(16)  and

    - the stored tag [t] IS the Poly1305 tag recomputed under [key] and the
      stored nonce over the AAD of the CALLER'S version id [vid] and the
      stored ciphertext [c]  ([t = aead_tag key nonce (make_aad vid) c]);
    - [p] is the ChaCha20 decryption of [c];
    - equivalently, [(c, t)] is exactly what [aead_seal] outputs for [p]
      with this key, nonce and AAD -- in particular
      [t = snd (aead_seal key nonce (make_aad vid) p)].

    What this does NOT say (and what cannot be said without a computational
    assumption on Poly1305/ChaCha20) is that an envelope sealed for a
    different version id or key is rejected; it says that acceptance is
    equivalent to a tag match for THIS version id (see [unseal_Some_iff]). *)

Theorem unseal_sound : forall key vid s p,
  unseal key vid s = Some p ->
  exists nonce c t,
    s = 1%N :: nonce ++ c ++ t /\
    length nonce = 12 /\ length t = 16 /\ length c = length p /\
    t = aead_tag key nonce (make_aad vid) c /\
    p = chacha20_xor key 1 nonce c /\
    aead_seal key nonce (make_aad vid) p = (c, t) /\
    t = snd (aead_seal key nonce (make_aad vid) p).
Proof.
  intros key vid s p H. destruct (unseal_shape _ _ _ _ H) as (nonce & c & t & -> & Hn & Ht).
  rewrite unseal_parse in H by assumption.
  pose proof (aead_open_is_seal _ _ _ _ _ _ H) as Hseal.
  apply aead_open_Some in H as [Htag Hp].
  exists nonce, c, t. repeat split; auto.
  - rewrite Hp. symmetry. apply chacha20_xor_length.
  - rewrite Hseal. reflexivity.
Qed.
Print Assumptions unseal_sound.

(** acceptance, exactly: what [seal] produces for the returned payload under
    the same key and version id ([unseal_sound] one way, [unseal_seal] back) *)
Theorem unseal_Some_iff : forall key vid s p,
  unseal key vid s = Some p <->
  exists nonce, length nonce = 12 /\ s = seal key nonce vid p.
Proof.
  intros key vid s p. split.
  - intros H. apply unseal_sound in H.
    destruct H as (nonce & c & t & -> & Hn & _ & _ & _ & _ & Hseal & _).
    exists nonce. split; [assumption|].
    unfold seal. rewrite Hseal. reflexivity.
  - intros (nonce & Hn & ->). apply unseal_seal. assumption.
Qed.
Print Assumptions unseal_Some_iff.
