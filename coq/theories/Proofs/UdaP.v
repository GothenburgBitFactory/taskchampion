(** User-defined attributes written through the mutators are read back by
    [Task::get_user_defined_attributes] ([udas]), removed ones are gone, every
    other attribute is untouched -- although the mutator also refreshes
    "modified", which is not an attribute -- and a reserved name never shows up
    as an attribute (C19). *)
From TC Require Import Model.TaskMut Proofs.TaskMutP.
From Coq Require Import Strings.String.

Lemma udas_elem (m : tmap) k v :
  (k, v) ∈ udas m <-> m !! k = Some v /\ is_known_key k = false.
Proof.
  unfold udas. rewrite elem_of_list_filter, elem_of_map_to_list. cbn. tauto.
Qed.

Lemma udas_functional (m : tmap) k v w : (k, v) ∈ udas m -> (k, w) ∈ udas m -> v = w.
Proof. rewrite !udas_elem. intros [H1 _] [H2 _]. congruence. Qed.

Section Mut.
Variable nowstr : list N.

Lemma run_uda_mutator s k v s' (set : bool) :
  run_mutator nowstr s (if set then MSetUda k v else MRemoveUda k) = Some s' ->
  is_known_key k = false /\ s' = set_value nowstr s k (if set then Some v else None).
Proof.
  destruct set; unfold run_mutator; destruct (is_known_key k); try discriminate; intros <-%(inj Some); auto.
Qed.

Lemma udas_set_value s k v q w :
  is_known_key k = false ->
  (q, w) ∈ udas (ts_map (set_value nowstr s k v)) <->
  if decide (q = k) then v = Some w else (q, w) ∈ udas (ts_map s).
Proof.
  intros Hk. rewrite udas_elem, lookup_set_value. destruct (decide (q = k)) as [->|Hne]; [tauto|].
  rewrite udas_elem. destruct (decide (q = s2l "modified"%string)) as [->|]; [|reflexivity].
  (* the refreshed "modified" is reserved, hence listed neither before nor after *)
  split; intros [_ [=]].
Qed.

Theorem set_uda_listed s k v s' :
  run_mutator nowstr s (MSetUda k v) = Some s' -> (k, v) ∈ udas (ts_map s').
Proof.
  intros [Hk ->]%(run_uda_mutator s k v s' true). rewrite udas_set_value, decide_True by auto. reflexivity.
Qed.

Theorem set_uda_only_value s k v w s' :
  run_mutator nowstr s (MSetUda k v) = Some s' -> (k, w) ∈ udas (ts_map s') -> w = v.
Proof. intros H Hw. exact (udas_functional _ _ _ _ Hw (set_uda_listed _ _ _ _ H)). Qed.

Theorem remove_uda_gone s k s' w :
  run_mutator nowstr s (MRemoveUda k) = Some s' -> (k, w) ∉ udas (ts_map s').
Proof.
  intros [Hk ->]%(run_uda_mutator s k k s' false). rewrite udas_set_value, decide_True by auto. discriminate.
Qed.

Theorem other_udas_untouched s k v s' (set : bool) q w :
  run_mutator nowstr s (if set then MSetUda k v else MRemoveUda k) = Some s' ->
  q <> k ->
  ((q, w) ∈ udas (ts_map s') <-> (q, w) ∈ udas (ts_map s)).
Proof.
  intros [Hk ->]%run_uda_mutator Hne. rewrite udas_set_value, decide_False by auto. reflexivity.
Qed.

Theorem reserved_never_listed (m : tmap) k v : is_known_key k = true -> (k, v) ∉ udas m.
Proof. rewrite udas_elem. intros H [_ H']. congruence. Qed.

Theorem refused_uda_is_noop s k v l :
  is_known_key k = true ->
  run_mutators nowstr s (MSetUda k v :: l) = run_mutators nowstr s l /\
  run_mutators nowstr s (MRemoveUda k :: l) = run_mutators nowstr s l.
Proof.
  intros H. destruct (reserved_uda_refused nowstr s k v H) as [H1 H2].
  unfold run_mutators. cbn [fold_left]. rewrite H1, H2. split; reflexivity.
Qed.
End Mut.

(** non-vacuity: an attribute set on a concrete task is listed next to an older one *)
Example uda_example :
  let s := {| ts_map := {[ s2l "status"%string := s2l "pending"%string; s2l "githubid"%string := s2l "17"%string ]};
              ts_um := false; ts_log := [] |} in
  exists s', run_mutator (s2l "1700000000"%string) s (MSetUda (s2l "jira"%string) (s2l "X-1"%string)) = Some s'
             /\ (s2l "jira"%string, s2l "X-1"%string) ∈ udas (ts_map s')
             /\ (s2l "githubid"%string, s2l "17"%string) ∈ udas (ts_map s').
Proof.
  intros s. eexists. split; [reflexivity|]. rewrite !udas_elem, set_value_reads_back, set_value_other by discriminate.
  unfold s. cbn [ts_map]. rewrite lookup_insert_ne, lookup_singleton by discriminate.
  repeat split.
Qed.
